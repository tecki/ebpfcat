(* C13 Datagram field encoding and decoding round-trip.
   Model: Ecat/Codec.v (EtherCat.roundtrip), Lib/Struct.v (struct "<").
   The lemmas about struct and roundtrip are in Lib/Struct_proofs.v and
   Ecat/Codec_proofs.v. *)
From Verif Require Import Lib.Struct Lib.Struct_proofs Ecat.Codec Ecat.Codec_proofs.

(* what is sent: struct encoding of the values under the formats, a trailing
   read-only format as zeros, then the raw data - for every argument list *)
Theorem C13_encode : forall args d out, rt_out args d = Some out ->
  exists p, pack (fmts_of (removelast args)) (vals_of args) = Some p /\
            out = p ++ zeros (calcsize (trailing args)) ++ raw_bytes d /\
            length p = calcsize (fmts_of (removelast args)).
Proof. exact encode_layout. Qed.
Print Assumptions C13_encode.

(* what is returned for ANY response of the payload's length: the fields
   decoded with the same formats at the same offsets, and, when raw data was
   given (including empty raw data / a zero count), the bytes after them *)
Theorem C13_decode : forall args d out ret, rt_out args d = Some out -> length ret = length out ->
  let n := calcsize (rt_fmt args) in
  exists vs, unpack (rt_fmt args) (firstn n ret) = Some vs /\
    rt_ret args d ret =
      Some match d, args with
           | DNone, _ => RFields vs
           | _, [] => RRaw ret
           | _, _ => RFieldsRaw vs (skipn n ret)
           end.
Proof.
  intros args d out ret Ho Hl n. pose proof (rt_out_length _ _ _ Ho) as L. rewrite <- Hl in L. fold n in L.
  destruct (unpack_total (rt_fmt args) (firstn n ret)) as [vs Hv].
  { rewrite firstn_length. fold n. lia. }
  exists vs. split; [exact Hv|].
  rewrite <- (firstn_skipn n ret) at 1.
  rewrite rt_ret_app, Hv by (rewrite skipn_length; lia).
  destruct d, args; rewrite ?firstn_skipn; reflexivity.
Qed.
Print Assumptions C13_decode.

(* struct decoding inverts struct encoding (all formats, all in-range values) *)
Theorem C13_struct_roundtrip : forall f, sizes_pos f -> forall vs out, vals_ok f vs ->
  pack f vs = Some out -> unpack f out = Some vs.
Proof. exact unpack_pack. Qed.
Print Assumptions C13_struct_roundtrip.

(* hence on an echoing bus the caller reads back exactly what it sent *)
Theorem C13_echo : forall args d out,
  sizes_pos (rt_fmt args) -> vals_ok (fmts_of (removelast args)) (vals_of args) ->
  rt_out args d = Some out ->
  rt_ret args d out =
    Some match d, args with
         | DNone, _ => RFields (vals_of args ++ zero_vals (trailing args))
         | _, [] => RRaw out
         | _, _ => RFieldsRaw (vals_of args ++ zero_vals (trailing args)) (raw_bytes d)
         end.
Proof.
  intros args d out [Hpa Hpb]%sizes_pos_app Hok (p & Hpk & -> & _)%encode_layout.
  pose proof (unpack_app _ _ _ _ _ _ (unpack_pack _ Hpa _ _ Hok Hpk) (unpack_zeros _ Hpb)) as U.
  fold (rt_fmt args) in U.
  rewrite app_assoc, rt_ret_app, U by reflexivity. now destruct d, args.
Qed.
Print Assumptions C13_echo.

(* non-vacuity: formats + values + EMPTY raw data *)
Example C13_nonvacuous :
  let args := [AFmt [FInt 2 false; FInt 1 true]; AVal (SInt 513); AVal (SInt (-2)); AFmt [FInt 4 false]] in
  rt_out args (DCount 0) = Some [1; 2; 254; 0; 0; 0; 0] /\
  rt_ret args (DCount 0) [1; 2; 254; 9; 0; 0; 0] =
    Some (RFieldsRaw [SInt 513; SInt (-2); SInt 9] []).
Proof. vm_compute. split; reflexivity. Qed.
