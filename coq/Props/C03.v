(* C03 Conditional blocks execute exactly the selected branch.
   Model (Gen/Cond.v):
   - `cmp_impl` / `jset_impl`: the truth value tested by the jump that
     SimpleComparison.compare / AndComparison.compare emit, as a function of the
     operand values - which width the operands are evaluated at, when the
     32-bit jump is used, when the left operand is re-extended (on top of the
     operand model Gen/Denote.v of C01);
   - `jumps`: where the jumps of a condition built with & | ~ land
     (AndOrComparison / InvertComparison compare() and target()), `runs_body`,
     `runs_else`: Comparison.__enter__ / Else.
   The model is validated on every run against the REAL generated bytecode
   executed in the ISA model (nested and sequenced with-blocks with markers). *)
From Verif Require Import Gen.Arith Gen.Denote Gen.Denote_proofs Gen.Cond Gen.Cond_proofs.

(* EVERY condition tree: the code emitted for compare(negative) jumps away
   exactly when the condition is false (negative) / true (not negative) *)
Theorem C03_combination : forall c negative,
  jumps c negative = if negative then negb (ctruth c) else ctruth c.
Proof.
  induction c as [t|a IHa b IHb|a IHa b IHb|a IHa]; intros negative; cbn [jumps ctruth].
  - reflexivity.
  - rewrite IHa, IHb. destruct negative, (ctruth a), (ctruth b); reflexivity.
  - rewrite IHa, IHb. destruct negative, (ctruth a), (ctruth b); reflexivity.
  - rewrite IHa. destruct negative, (ctruth a); reflexivity.
Qed.
Print Assumptions C03_combination.

(* hence the body of `with cond` runs iff the condition holds and the Else
   part iff it does not - for every tree of & | ~ *)
Theorem C03_with_block : forall c, runs_body c = ctruth c /\ runs_else c = negb (ctruth c).
Proof. intros c. unfold runs_body, runs_else. rewrite C03_combination. destruct (ctruth c); split; reflexivity. Qed.
Print Assumptions C03_with_block.

(* atoms, signed: for all operand expressions and values (ok = C01's
   precondition), if the compared values fit the signed width of the
   comparison - 32 bits only if both sides are 32-bit, else 64 - the jump
   tests the exact mathematical comparison *)
Theorem C03_atom_signed : forall op a b,
  esigned a || esigned b = true ->
  let la := snd (impl a None) in
  let reqb := if la then Some true else None in
  ok a None -> (small_constant b = None -> ok b reqb) ->
  let rb := match small_constant b with Some _ => false | None => snd (impl b reqb) end in
  fits_s (if la then W64 else W32) (exact a) ->
  fits_s (if la || rb then W64 else W32) (exact b) ->
  cmp_impl op a b = cmp_exact op (exact a) (exact b).
Proof.
  intros op a b Hs la reqb Ha Hb rb Fa Fb. unfold cmp_impl. rewrite Hs.
  destruct (impl_inv a None Ha) as [Ra Ca]. cbn [eff] in Ca.
  subst la reqb rb. destruct (impl a None) as [va la]. cbn [fst snd] in *.
  destruct (small_constant b) as [imm|] eqn:Sb.
  - (* immediate *)
    destruct (small_constant_spec _ _ Sb) as [-> _]. cbn [exact] in *.
    apply signed_atom; try assumption; [apply Z.mod_pos_bound; reflexivity|apply cong_W64, cong_mod].
  - destruct (impl_inv b _ (Hb eq_refl)) as [Rb Cb]. destruct (impl b _) as [vb rb]. cbn [fst snd] in *.
    apply signed_atom; try assumption. destruct la; exact Cb.
Qed.
Print Assumptions C03_atom_signed.

(* atoms, unsigned (clean = the upper register half of a 32-bit operand is
   zero, proved below for every operand that is not a negation / abs) *)
Theorem C03_atom_unsigned : forall op a b,
  esigned a || esigned b = false ->
  let la := snd (impl a None) in
  let reqb := if la then Some true else None in
  ok a None -> (small_constant b = None -> ok b reqb) ->
  clean a None -> (small_constant b = None -> clean b reqb) ->
  let rb := match small_constant b with Some _ => false | None => snd (impl b reqb) end in
  0 <= exact a < width la -> 0 <= exact b < width (la || rb) ->
  cmp_impl op a b = cmp_exact op (exact a) (exact b).
Proof. intros op a b Hs. unfold cmp_impl. rewrite Hs. exact (unsigned_atom (cmp_exact op) a b). Qed.
Print Assumptions C03_atom_unsigned.

Theorem C03_clean : forall e, ok e None -> plain e = true -> esigned e = false -> clean e None.
Proof.
  intros e. unfold clean. destruct e as [v|c l sg|raw size sg|op a b|a|a]; cbn [plain]; try discriminate; intros Hok _ Hs.
  - cbn [impl fst snd eff esigned ok] in *. rewrite Z.mod_small by lia.
    destruct (negb _) eqn:E; unfold width, W64, W32 in *; lia.
  - cbn [impl fst snd eff esigned ok] in *. subst sg. destruct Hok as [R Hl]. rewrite Z.mod_small by lia.
    destruct l; cbn [width]; [lia|]. apply Hl. reflexivity.
  - cbn [impl fst snd eff esigned ok] in *. subst sg. cbn [andb]. destruct Hok as [Hin R].
    destruct Hin as [<-|[<-|[<-|[<-|[]]]]]; cbn [Nat.eqb width]; unfold W64, W32; cbn in R; lia.
  - rewrite impl_bin. apply alu_at_range.
Qed.
Theorem C03_clean_long : forall e, ok e (Some true) -> clean e (Some true).
Proof. intros e H. destruct (impl_inv e _ H) as [R _]. unfold clean. cbn [eff width]. lia. Qed.

(* bit tests `(a & mask) != 0` of unsigned operands (one JSET instruction) *)
Theorem C03_bit_test : forall a b,
  esigned a || esigned b = false ->
  let la := snd (impl a None) in
  let reqb := if la then Some true else None in
  ok a None -> (small_constant b = None -> ok b reqb) ->
  clean a None -> (small_constant b = None -> clean b reqb) ->
  let rb := match small_constant b with Some _ => false | None => snd (impl b reqb) end in
  0 <= exact a < width la -> 0 <= exact b < width (la || rb) ->
  jset_impl a b = negb (Z.land (exact a) (exact b) =? 0).
Proof. intros a b Hs. unfold jset_impl. rewrite Hs. exact (unsigned_atom (fun va vb => negb (Z.land va vb =? 0)) a b). Qed.
Print Assumptions C03_bit_test.

(* non-vacuity: a signed 2-byte variable (-3) compared with an unsigned
   8-byte one, inside a tree *)
Example C03_nonvacuous :
  let a := EVar 65533 2 true in let b := EVar 5 8 false in
  ok a None /\ ok b None /\ fits_s W32 (exact a) /\ fits_s W64 (exact b) /\
  cmp_impl CLt a b = true /\
  runs_body (CAnd (CAtom (cmp_impl CLt a b)) (CNot (COr (CAtom false) (CAtom (cmp_impl CGe a b))))) = true.
Proof. vm_compute. intuition discriminate. Qed.
