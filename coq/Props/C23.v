(* C23 Processes sharing an interface coordinate the dispatcher safely.
   Model: Sys/StartStop.v - the start and stop sequences of
   ParallelEtherCat.run as atomic steps on the shared objects (lock directory with
   one file per participant, pinned program table, XDP attachment);
   Sys/FmmuLock.v - the shared map of logical address windows.  Validated on
   every run: the REAL run() / FMMULock in forked processes, gated at every
   operation on a shared object and interleaved by schedules. *)
From Verif Require Import Sys.StartStop Sys.StartStop_proofs Sys.FmmuLock Sys.FmmuLock_proofs Sys.FmmuBytes Sys.FmmuBytes_proofs.

(* TWO participants, EVERY interleaving of their steps and every outcome of the random ethertype draws: at most one
   participant installs the dispatcher at a time, and running participants have distinct ethertypes.  Both statements are
   instances of Sys.StartStop_proofs.start_stop_safe, which holds for any number of participants and any set of
   ethertypes the draws may give (an inductive invariant: who owns which file of the lock directory); so it covers as well
   the schedules replayed against the real run() (Corr/C23.v run_eth), whose draws are from [1; 2; 3]. *)
Theorem C23_two_participants : forall sched,
  let s := run_sched [1; 2] (init 2) sched in p1 s = true /\ p3 s = true.
Proof. exact (start_stop_safe [1; 2] 2). Qed.
Print Assumptions C23_two_participants.

(* THREE participants, every interleaving: the same *)
Theorem C23_three_participants : forall sched,
  p1 (run_sched [1; 2] (init 3) sched) = true /\ p3 (run_sched [1; 2] (init 3) sched) = true.
Proof. exact (start_stop_safe [1; 2] 3). Qed.
Print Assumptions C23_three_participants.

(* the address windows: in EVERY history of allocations and releases (any number of processes) no two processes hold
   the same window number, different numbers mean disjoint windows, and the 4096-byte blocks a process hands to its sync
   groups stay inside its window *)
Theorem C23_windows_distinct : forall es, finv (fold_left fstep es {| used := []; held := [] |}).
Proof.
  intros es. apply fold_left_inv; [exact fstep_inv|].
  split; [constructor|]. intros p a [].
Qed.
Theorem C23_windows_disjoint : forall a b, a <> b -> window_hi a <= window_lo b \/ window_hi b <= window_lo a.
Proof. unfold window_hi, window_lo. lia. Qed.
Theorem C23_groups_in_window : forall a k, 1 <= k < 1024 -> window_lo a <= group_addr a k /\ group_addr a k + 4096 <= window_hi a.
Proof. unfold group_addr, window_lo, window_hi. lia. Qed.
Print Assumptions C23_windows_distinct.

(* NOT TRUE of the code (recorded finding): the dispatcher and its program table do not stay installed while a participant
   is running - a leaver that emptied the lock directory still detaches and unpins after a fresh starter installed its own *)
Theorem C23_refuted_stays_installed : let s := run_sched [1; 2] (init 2) race in
  p2 s = false /\ map (fun p => pc_code (p_pc p)) (procs s) = [15; 10] /\ att s = None /\ pin s = None.
Proof. vm_compute. auto. Qed.
(* repaired defect: the creator's unlocked write of the window map *)
Theorem C23_pinned_fmmu_refuted :
  let s := fold_left fstep_pinned [PCreate; PJoinAlloc 1 7; PCreatorWrite; PJoinAlloc 2 7] {| used := []; held := [] |} in
  map snd (held s) = [7; 7; 1].
Proof. reflexivity. Qed.

(* a removal that is not excluded from allocations (read and write of the map byte as two steps) hands one window to two processes *)
Theorem C23_split_release_refuted :
  let s := fold_left sstep [SAlloc 0 9; SRelRead 0; SAlloc 1 10; SRelWrite 0; SAlloc 2 10] {| s_f := {| used := []; held := [] |}; s_snap := [] |} in
  ~ NoDup (map snd (held (s_f s))).
Proof. vm_compute. intros [Hn _]%NoDup_cons_iff. apply Hn. now left. Qed.
Print Assumptions C23_split_release_refuted.

(* ---- the bytes of the map file (Sys/FmmuBytes.v: byte | (1 << k) and byte & ~(1 << k) as lock.py computes them).
   C23_windows_distinct above is about a LIST of taken numbers; these carry it to the 64 bytes: a removal clears the bit of the
   leaver's number and no other bit of the map, an allocation sets one bit and no other ... *)
Theorem C23_remove_clears_only_own_bit : forall m a j, length m = 64%nat -> 0 <= a < 512 -> 0 <= j < 512 ->
  testb (clear_bit m a) j = testb m j && negb (j =? a).
Proof. exact clear_bit_spec. Qed.
Print Assumptions C23_remove_clears_only_own_bit.

Theorem C23_alloc_sets_only_own_bit : forall m a j, length m = 64%nat -> 0 <= a < 512 -> 0 <= j < 512 ->
  testb (set_bit m a) j = testb m j || (j =? a).
Proof. exact set_bit_spec. Qed.
Print Assumptions C23_alloc_sets_only_own_bit.

(* ... so that after ANY sequence of allocations and removals, starting from the empty file (`zeros`: FmmuBytes_proofs's 64 zero bytes, not Lib.Bytes.zeros), the file still consists of 64 bytes,
   and marks exactly the numbers that the abstract state (for which distinctness is proved) holds as used *)
Theorem C23_map_bytes_refine : forall evs,
  let '(m, h) := fold_left bstep evs (zeros, []) in
  let s := fold_left fstep evs {| used := []; held := [] |} in
  bytes_ok m /\ h = held s /\ Rmap m (used s).
Proof.
  intros evs. pose proof (fold_left_sim refines bstep fstep bstep_refines evs _ _ refines_start) as H.
  destruct (fold_left bstep evs (zeros, [])) as [m h]. destruct H as (Hb & _ & E & HR). now split.
Qed.
Print Assumptions C23_map_bytes_refine.

Example C23_map_bytes_nonvacuous :
  let '(m, h) := fold_left bstep [Alloc 0 10; Alloc 1 12; Alloc 2 300; Release 1] (zeros, []) in
  nth 1 m 0 = 4 /\ nth 37 m 0 = 16 /\ h = [(2, 300); (0, 10)] /\ testb m 10 = true /\ testb m 12 = false.
Proof. vm_compute. repeat split. Qed.
