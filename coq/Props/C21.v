(* C21 Fast-group frames only write outputs computed in the same pass.
   Model (Ecat/Dispatch.v): `sterile` / `activate` - SterilePacket.sterile (user
   space) and SterilePacket.activate (the group's program): the command bytes of
   the write datagrams; `dispatch` - what the dispatcher writes; `gstep` - the
   histories of the frames of one group (index, write datagrams enabled).
   Validated on every run: the REAL sterile() and the REAL generated
   FastSyncGroup program against `sterile` / `activate`, the REAL dispatcher
   bytecode against `dispatch` (C22's check). *)
From Verif Require Import Ecat.Dispatch Ecat.Dispatch_proofs Ecat.UserLoop Ecat.UserLoop_proofs.

(* output disabled (wkc_errors = 0): the program leaves the frame as it is *)
Theorem C21_disabled_untouched : forall l f, activate l f 0 = (f, 0).
Proof. reflexivity. Qed.

(* the program re-enables exactly the write datagrams: the command byte is written back, the working counter
   cleared, one error counted iff the counter differed from the expected value *)
Theorem C21_activate_one : forall start wkc cmd expected f errors, errors <> 0 ->
  (start + 14 < length f)%nat -> (wkc + 15 < length f)%nat -> (start + 14 <> wkc + 14)%nat -> (start + 14 <> wkc + 15)%nat ->
  let '(f', e') := activate [(start, wkc, cmd, expected)] f errors in
  byte_at f' (start + 14) = cmd mod 256 /\ byte_at f' (wkc + 14) = 0 /\ byte_at f' (wkc + 15) = 0 /\
  e' = if u16le f (wkc + 14) =? expected then errors else (errors + 1) mod 4294967296.
Proof.
  intros start wkc cmd expected f errors He L1 L2 N1 N2.
  unfold activate. rewrite (proj2 (Z.eqb_neq errors 0) He). cbn [activate_all].
  assert (U : u16le (set_byte f (start + 14) cmd) (wkc + 14) = u16le f (wkc + 14))
    by (unfold u16le; now rewrite !byte_set_other by lia).
  rewrite U. repeat split.
  - rewrite !byte_set_other by lia. apply byte_set_same, L1.
  - rewrite byte_set_other by lia. apply byte_set_same. rewrite set_byte_length. lia.
  - apply byte_set_same. rewrite !set_byte_length. exact L2.
Qed.
Print Assumptions C21_activate_one.

(* ... for ANY list of write datagrams: nothing but their command bytes and working counters changes, and at
   most one error per write datagram is counted *)
Theorem C21_activate_frame : forall l f errors j, ~ In j (touched l) ->
  byte_at (fst (activate_all l f errors)) j = byte_at f j /\ length (fst (activate_all l f errors)) = length f.
Proof.
  induction l as [|[[[start wkc] cmd] expected] tl IH]; intros f errors j Hj; cbn [activate_all touched In] in *.
  { split; reflexivity. }
  edestruct IH with (j := j) as [A B]; [tauto|].
  rewrite A, B, !set_byte_length, !byte_set_other by (intros ->; tauto). split; reflexivity.
Qed.
Print Assumptions C21_activate_frame.

Theorem C21_errors_bound : forall l f errors, 0 <= errors -> errors + zlen l < 4294967296 ->
  errors <= snd (activate_all l f errors) <= errors + zlen l.
Proof.
  induction l as [|[[[start wkc] cmd] expected] tl IH]; intros f errors H0 H1; unfold zlen in *;
    cbn [activate_all length snd] in *; [lia|].
  set (e' := if _ =? expected then errors else _). set (f' := set_byte _ (wkc + 15) 0).
  assert (He : errors <= e' <= errors + 1) by (subst e'; destruct (_ =? expected); lia).
  specialize (IH f' e'). lia.
Qed.

(* the dispatcher writes only the frame index and the ethertype: it never enables a datagram *)
Theorem C21_dispatcher_enables_nothing : forall reg f m j, j <> INDEX0 -> j <> ETHERTYPE_POS -> j <> S ETHERTYPE_POS ->
  byte_at (fst (fst (dispatch reg f m))) j = byte_at f j.
Proof.
  intros reg f m j H1 H2 H3. pose proof (dispatch_cases reg f m) as H.
  destruct (dispatch reg f m) as [[f' m'] a]. cbn [fst].
  destruct H as (f1 & _ & E & H). rewrite <- (E j H1). destruct a as [| |g|].
  - now subst.
  - destruct H as [[-> _]|[-> _]]; [reflexivity|apply to_user_other; assumption].
  - now destruct H as [-> _].
  - destruct H.
Qed.
Print Assumptions C21_dispatcher_enables_nothing.

(* In EVERY history of a group's frames (any number in flight, deliveries in any order, losses, injections of
   sterile frames): a frame that goes back to the bus without the group's program has no enabled write
   datagrams.  (Invariant: enabled frames carry an odd index, frames that bypass the program an even one.) *)
Theorem C21_no_enabled_bypass : forall es s e en, ginv s ->
  snd (gstep (fold_left (fun st e => fst (gstep st e)) es s) e) = Some (KTx, en) -> en = false.
Proof. exact tx_never_enabled. Qed.
Print Assumptions C21_no_enabled_bypass.

Example C21_nonvacuous : ginv {| counter := 1; flight := [] |} /\
  snd (gstep (fold_left (fun st e => fst (gstep st e)) [Inject; Inject; Deliver 0%nat] {| counter := 1; flight := [] |}) (Deliver 1%nat))
  = Some (KTail, false).
Proof. split; [split; [cbn; lia|constructor]|vm_compute; reflexivity]. Qed.

(* ---- the user-space half (Ecat/UserLoop.v: FastSyncGroup.run / SyncGroupBase.run / FastSyncGroup.update_devices).
   Whatever comes back from the bus - sterile frames, activated frames, nothing at all (timeout and re-send),
   in any order and for any number of cycles - every cyclic frame the loop hands to the socket is the sterile
   frame: the command byte of every write datagram is NOP. *)
Theorem C21_user_space_sends_sterile : forall l full evs f st w c e,
  In f (u_sent (uloop (sterile l full) evs)) -> In (st, w, c, e) l -> (st + 14 < length full)%nat ->
  byte_at f (st + 14) = 0.
Proof.
  intros l full evs f st w c e Hf Hin Hlen. destruct (uloop_sends_asm (sterile l full) evs) as [_ Hs].
  rewrite Forall_forall in Hs. rewrite <- (Hs f Hf). apply (sterile_nop l full st w c e); auto.
Qed.
Print Assumptions C21_user_space_sends_sterile.

Theorem C21_user_loop_invariant : forall asm evs, u_data (uloop asm evs) = asm /\ Forall (eq asm) (u_sent (uloop asm evs)).
Proof. exact uloop_sends_asm. Qed.
Print Assumptions C21_user_loop_invariant.

Example C21_user_loop_nonvacuous :
  let full := repeat 6 40 in let l := [(2%nat, 20%nat, 5, 1)] in
  let act := set_byte (set_byte full 16 5) INDEX0 3 in
  let s := uloop (sterile l full) [URecv act; UTimeout; URecv full; UTimeout] in
  length (u_sent s) = 7%nat /\ u_cur s = Some act /\ byte_at act 16 = 5 /\ Forall (fun f => byte_at f 16 = 0) (u_sent s).
Proof. vm_compute. repeat split; repeat constructor. Qed.
