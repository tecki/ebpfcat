(* C17 EEPROM contents and derived layouts are decoded exactly.
   Model: Ecat/Eeprom.v (Terminal._eeprom_read_one, read_eeprom,
   parse_sync_managers, parse_pdos from the EEPROM).  Specification: the SII
   layout (enc_cats / enc_sm / enc_pdo) and direct slicing of the image. *)
From Verif Require Import Ecat.Eeprom Ecat.Eeprom_proofs.

(* one EEPROM access returns the 8 image bytes at the word address, whether
   the interface reads 4 or 8 bytes and whatever the unused half contains
   (busy polls are skipped by the polling loops and do not reach the model) *)
Theorem C17_read_one : forall img mode8 junk start, 0 <= start ->
  eeprom_read_one img mode8 junk start = img_bytes img start 8.
Proof. exact read_one_exact. Qed.
Print Assumptions C17_read_one.

(* for ANY image whose category area is the SII encoding of `cats` (any number,
   types, even lengths, contents) followed by anything: identity and every
   category up to the end marker are returned exactly *)
Theorem C17_categories : forall img mode8 junk cats tail,
  skipn 128 img = enc_cats cats ++ tail -> Forall cat_ok cats ->
  let r := read_eeprom (S (length img)) (eeprom_read_one img mode8 junk) in
  snd r = Some cats /\
  vendorId (fst r) = le_val (pad_from img 16 4) /\ productCode (fst r) = le_val (pad_from img 20 4) /\
  revisionNo (fst r) = le_val (pad_from img 24 4) /\ serialNo (fst r) = le_val (pad_from img 28 4).
Proof.
  intros img mode8 junk cats tail HS W.
  apply (read_eeprom_spec img _ (read_one_exact img mode8 junk) cats tail); [exact HS|exact W|].
  (* S (length img) rounds are enough: every category takes at least four bytes of the image *)
  pose proof (enc_cats_length cats) as L. apply (f_equal (@length Z)) in HS.
  rewrite skipn_length, app_length in HS. lia.
Qed.
Print Assumptions C17_categories.

(* sync managers: each mailbox / process-data area gets the offset and size
   stored in its entry (entry k at register 0x800+8k, later entries win) *)
Theorem C17_sync_managers : forall es fuel i l, Forall sm_ok es -> (length es < fuel)%nat ->
  parse_sms fuel i (flat_map enc_sm es) l = Some (sm_table i es l).
Proof.
  induction es as [|e tl IH]; intros [|k] i l W F; try (cbn in F; lia); [reflexivity|].
  inversion W as [|? ? We Wtl]; subst. cbn [flat_map sm_table].
  rewrite parse_sms_step by exact We. apply IH; [exact Wtl|cbn in F; lia].
Qed.
Print Assumptions C17_sync_managers.

(* PDO categories decode to exactly the stored entries, in order ... *)
Theorem C17_pdo_entries : forall pdos fuel, Forall pdo_ok pdos -> (length pdos < fuel)%nat ->
  parse_pdo_cat fuel (flat_map enc_pdo pdos) = Some (flat_map (fun p => map triple (p_entries p)) pdos).
Proof.
  induction pdos as [|p tl IH]; intros [|k] W F; try (cbn in F; lia); [reflexivity|].
  inversion W as [|? ? Wp Wtl]; subst. cbn [flat_map].
  rewrite parse_pdo_cat_step by exact Wp. rewrite IH; [reflexivity|exact Wtl|cbn in F; lia].
Qed.
Print Assumptions C17_pdo_entries.

(* ... and each mapped entry gets byte offset / bit position = the running sum
   of the lengths of all entries before it (gaps included) *)
Theorem C17_pdo_layout : forall es bitpos acc l tot, layout es bitpos acc = Some (l, tot) ->
  l = rev acc ++ positions es bitpos /\ tot = bitpos + total_bits es.
Proof.
  induction es as [|[[idx sub] bits] tl IH]; intros bitpos acc l tot H; cbn [layout] in H.
  - inversion H; subst. cbn. rewrite app_nil_r. split; [reflexivity|lia].
  - cbn [positions total_bits fold_right snd]. fold (total_bits tl).
    destruct (idx =? 0).
    + apply IH in H as [-> ->]. split; [reflexivity|lia].
    + destruct (bits <? 8).
      * apply IH in H as [-> ->]. cbn [rev]. rewrite <- app_assoc. split; [reflexivity|lia].
      * destruct (negb (bits mod 8 =? 0) || negb (bitpos mod 8 =? 0)); [discriminate|].
        destruct (negb _); [discriminate|].
        apply IH in H as [-> ->]. cbn [rev]. rewrite <- app_assoc. split; [reflexivity|lia].
Qed.
Print Assumptions C17_pdo_layout.

Theorem C17_pdo_layout_total : forall es bitpos acc, aligned es bitpos ->
  exists l tot, layout es bitpos acc = Some (l, tot).
Proof.
  induction es as [|[[idx sub] bits] tl IH]; intros bitpos acc A; cbn [layout]; [eauto|].
  destruct A as [A1 A2].
  destruct (Z.eqb_spec idx 0); [apply IH, A2|].
  destruct (Z.ltb_spec bits 8); [apply IH, A2|].
  destruct A1 as [?|[?|(M & B)]]; try lia.
  replace (negb (bits mod 8 =? 0) || negb (bitpos mod 8 =? 0)) with false by lia.
  replace (negb ((bits =? 8) || (bits =? 16) || (bits =? 32) || (bits =? 64))) with false by lia.
  apply IH, A2.
Qed.
Print Assumptions C17_pdo_layout_total.

Example C17_nonvacuous :
  let cats := [(30, [1; 2; 3; 4]); (41, [0; 16; 128; 0; 38; 0; 1; 1])] in
  let img := repeat 0 16 ++ [2; 0; 0; 0; 52; 18; 0; 0; 5; 0; 0; 0; 77; 0; 0; 0] ++ repeat 0 96 ++ enc_cats cats ++ [9; 9] in
  skipn 128 img = enc_cats cats ++ [9; 9] /\ Forall cat_ok cats /\
  snd (read_eeprom (S (length img)) (eeprom_read_one img false [7; 7; 7; 7])) = Some cats /\
  positions [(24576, 1, 1); (0, 0, 7); (24576, 17, 16)] 0 = [(24576, 1, PBit 0 0); (24576, 17, PFmt 1 16)].
Proof.
  split; [reflexivity|]. split; [repeat constructor; cbn; lia|]. split; vm_compute; reflexivity.
Qed.
