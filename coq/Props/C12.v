(* C12 Every datagram request gets exactly its own response.
   Model: Ecat/SendLoop.v - `pack` is one run of EtherCat.sendloop over the
   requests it finds queued (it does not yield while the queue is non-empty),
   `process` is EtherCat.process_packet on the response of one frame. *)
From Verif Require Import Ecat.Frame Ecat.SendLoop Ecat.SendLoop_proofs.

(* every request (any number, any sizes) is put into exactly one frame, frames
   carry the requests in submission order, every frame respects the size and
   count limits, and a request that can never fit into a frame fails instead
   of being retried (the packing function is total: sendloop always gets back
   to awaiting the queue) *)
Theorem C12_sent_once_in_order : forall rs fs bad, pack rs [] Packet_PACKET_HEADER = (fs, bad) ->
  concat fs = filter fits_alone rs /\
  bad = filter (fun r => negb (fits_alone r)) rs /\
  Forall frame_ok fs.
Proof. intros rs fs bad H. apply pack_spec in H; [exact H|reflexivity|congruence]. Qed.
Print Assumptions C12_sent_once_in_order.

(* such a frame is accepted datagram by datagram by Packet.append (so C11
   gives the positions at which each request's data and counter travel) *)
Theorem C12_frames_fit : forall f, frame_ok f -> appends empty_packet (map dg_of f) <> None.
Proof. intros f (Hn & Hs & Hl). apply frame_ok_appends; [exact Hs|exact Hl]. Qed.
Print Assumptions C12_frames_fit.

(* completion is pointwise: the outcome of a request is a function of its own
   future state, its own working counter and its own bytes of the response -
   never of another request *)
Theorem C12_independent : forall data ds,
  Forall (fun d => snd (fst d) + 2 <= zlen data) ds -> process data ds = map (complete data) ds.
Proof.
  induction ds as [|[[start stop] f] tl IH]; intros H; [reflexivity|].
  inversion H as [|? ? Hd Htl]; subst. cbn [process map]. cbn [fst snd] in Hd.
  destruct (Z.ltb_spec (zlen data) (stop + 2)); [lia|]. now rewrite IH.
Qed.
Print Assumptions C12_independent.

Theorem C12_own_bytes_or_error : forall data start stop,
  complete data (start, stop, FPending) =
    if wkc_at data stop =? 0 then OError else OResult (ztake (stop - start) (zdrop start data)).
Proof. reflexivity. Qed.
Print Assumptions C12_own_bytes_or_error.

(* at most once: a request that is already done (cancelled) is never completed again *)
Theorem C12_at_most_once : forall data ds,
  Forall2 (fun d o => snd d = FDone -> o = OUntouched) ds (process data ds).
Proof.
  induction ds as [|[[start stop] f] tl IH]; cbn [process]; [constructor|].
  destruct (zlen data <? stop + 2).
  - (* the exception reaches the pending futures only *)
    clear IH. generalize ((start, stop, f) :: tl). intros l.
    induction l as [|d l IHl]; constructor; [now intros ->|exact IHl].
  - constructor; [cbn; now intros ->|exact IH].
Qed.
Print Assumptions C12_at_most_once.

Example C12_nonvacuous :
  let r n i := {| q_id := i; q_data := zeros n |} in
  pack [r 700%nat 1; r 1473%nat 2; r 700%nat 3; r 700%nat 4; r 5%nat 5] [] Packet_PACKET_HEADER
  = ([[r 700%nat 1]; [r 700%nat 3; r 700%nat 4; r 5%nat 5]], [r 1473%nat 2]).
Proof. vm_compute. reflexivity. Qed.
