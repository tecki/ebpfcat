(* C04 Writing one variable never changes another.
   Model (Gen/Layout.v): the functions that place declared variables -
   LocalVar.__set_name__ (stack -= size; stack &= -size), EBPF.get_stack
   (scratch), SubProgram locals ((main.stack & -8) + relative address),
   ArrayMap.collect (running sum over the size-sorted collection).  The real
   layout of random declaration sets is compared with them on every run, and real
   generated programs writing one variable are executed in the ISA model. *)
From Verif Require Import Ebpf.Isa Ebpf.Isa_proofs Lib.Bits Gen.Layout Gen.Layout_proofs Gen.BitField Gen.BitField_proofs.

(* for ANY list of local declarations (sizes 1/2/4/8): no two locals overlap *)
Theorem C04_locals_disjoint : forall sizes stack, Forall pow2_size sizes ->
  pairwise_disjoint (fst (alloc_locals stack sizes)).
Proof.
  (* locals are items; a power of two is positive, and no more is needed *)
  intros sizes stack H. rewrite alloc_locals_items. apply items_disjoint, Forall_map. exact (Forall_impl _ pow2_pos H).
Qed.
Print Assumptions C04_locals_disjoint.

(* scratch space (saved registers, map keys, intermediate values) lies below
   every local of the program *)
Theorem C04_scratch_disjoint : forall sizes size, Forall pow2_size sizes -> pow2_size size ->
  let '(vars, st) := alloc_locals 0 sizes in
  Forall (fun r => disjoint (scratch st size, size) r) vars.
Proof.
  intros sizes size H Hz. rewrite alloc_locals_items.
  apply (scratch_below_items _ 0); [apply Forall_map; exact (Forall_impl _ pow2_pos H)|exact (pow2_pos _ Hz)].
Qed.
Print Assumptions C04_scratch_disjoint.

(* for ANY set of array-map variables (any sizes, any order): no two overlap *)
Theorem C04_array_vars_disjoint : forall sizes pos, Forall (fun s => 0 <= s) sizes ->
  pairwise_disjoint (positions pos sizes) /\ Forall (fun r => pos <= fst r) (positions pos sizes).
Proof. exact positions_disjoint. Qed.
Print Assumptions C04_array_vars_disjoint.

(* a store into one variable's bytes leaves every byte outside them unchanged
   (instruction semantics of the ISA model): with disjoint ranges, no other
   variable changes *)
Theorem C04_store_frame : forall l off b l', write_bytes l off b = Some l' ->
  length l' = length l /\ read_bytes l' off (length b) = Some b /\
  forall i, (Z.of_nat i < off \/ off + zlen b <= Z.of_nat i) -> nth i l' 0 = nth i l 0.
Proof. exact write_bytes_frame. Qed.

(* recorded finding: subprogram locals do not get their own bytes *)
Theorem C04_refuted_subprogram_locals :
  (forall main_stack rel, sub_local main_stack rel = sub_local main_stack rel) /\
  (let main_stack := -8 in let rel := -4 in ~ disjoint (scratch main_stack 4, 4) (sub_local main_stack rel, 4)).
Proof. split; [reflexivity|]. vm_compute. intros [H|H]; apply H; reflexivity. Qed.

Example C04_nonvacuous :
  fst (alloc_locals 0 [1; 8; 2; 4]) = [(-1, 1); (-16, 8); (-18, 2); (-24, 4)] /\
  pairwise_disjoint (fst (alloc_locals 0 [1; 8; 2; 4])).
Proof.
  split; [reflexivity|]. apply C04_locals_disjoint.
  repeat constructor; [exists 0|exists 3|exists 1|exists 2]; split; (lia || reflexivity).
Qed.

(* Dict structures (key and value on the stack) between locals, in ANY declaration order: the model of Dict.__set_name__ *)
Theorem C04_dict_layout : forall stack ks vs, 0 <= ks -> 0 <= vs ->
  let '((k, _), (v, _), st) := alloc_dict stack ks vs in
  st = v /\ v + vs <= k /\ k + ks <= stack /\ k mod 8 = 0 /\ v mod 8 = 0.
Proof.
  (* the signs of the sizes are not used: rounding down only moves a structure further down *)
  intros stack ks vs _ _. apply dict_layout.
Qed.
Print Assumptions C04_dict_layout.
Theorem C04_items_disjoint : forall l stack, Forall item_ok l -> pairwise_disjoint (fst (alloc_items stack l)).
Proof. intros l stack H. exact (items_disjoint l stack (Forall_impl _ item_ok_pos H)). Qed.
Print Assumptions C04_items_disjoint.
(* temporaries (hash-map keys, intermediate values, saved registers) taken after all declarations lie below every local, key and value *)
Theorem C04_scratch_below_items : forall l size, Forall item_ok l -> pow2_size size ->
  let '(vars, st) := alloc_items 0 l in
  Forall (fun r => disjoint (scratch st size, size) r) vars.
Proof. intros l size H Hz. exact (scratch_below_items l 0 size (Forall_impl _ item_ok_pos H) (pow2_pos _ Hz)). Qed.
Print Assumptions C04_scratch_below_items.
Example C04_items_nonvacuous :
  fst (alloc_items 0 [ILocal 4; IDict 8 4; ILocal 1; IDict 5 13]) = [(-4, 4); (-16, 8); (-24, 4); (-25, 1); (-32, 5); (-48, 13)].
Proof. reflexivity. Qed.

(* ---- bit-field variables: several declared variables share one byte (fmt = (pos, bits); ebpf.py Memory._set computes
   mask & (value << pos) | ~mask & byte on unbounded integers).  Whatever value is stored - also a negative one or one that does
   not fit the field - every bit outside the field keeps its value, so every other variable in the byte reads what it read
   before; the field itself reads the value modulo 2^bits; the byte stays a byte. *)
Theorem C04_bitfield_store_bits : forall b v pos bits i, 0 <= pos -> 0 <= bits -> 0 <= i ->
  Z.testbit (set_field b v pos bits) i = if (pos <=? i) && (i <? pos + bits) then Z.testbit v (i - pos) else Z.testbit b i.
Proof. exact set_field_bits. Qed.
Print Assumptions C04_bitfield_store_bits.

Theorem C04_bitfield_other_unchanged : forall b v pos bits pos' bits', 0 <= pos -> 0 <= bits -> 0 <= pos' -> 0 <= bits' ->
  pos + bits <= pos' \/ pos' + bits' <= pos ->
  get_field (set_field b v pos bits) pos' bits' = get_field b pos' bits'.
Proof.
  intros b v pos bits pos' bits' Hp Hb Hp' Hb' Hd. apply Z.bits_inj'. intros i Hi.
  rewrite !get_field_bits, set_field_bits by lia. destruct (Z.ltb_spec i bits'); [|reflexivity].
  replace ((pos <=? i + pos') && (i + pos' <? pos + bits)) with false by lia. reflexivity.
Qed.
Print Assumptions C04_bitfield_other_unchanged.

Theorem C04_bitfield_reads_back : forall b v pos bits, 0 <= pos -> 0 <= bits -> get_field (set_field b v pos bits) pos bits = v mod 2 ^ bits.
Proof.
  intros b v pos bits Hp Hb. apply Z.bits_inj'. intros i Hi.
  rewrite get_field_bits, set_field_bits, Z.testbit_mod_pow2 by lia. destruct (Z.ltb_spec i bits); [|reflexivity].
  replace ((pos <=? i + pos) && (i + pos <? pos + bits)) with true by lia. cbn [andb]. f_equal. lia.
Qed.
Print Assumptions C04_bitfield_reads_back.

Theorem C04_bitfield_stays_byte : forall b v pos bits, 0 <= b < 256 -> 0 <= pos -> 0 <= bits -> pos + bits <= 8 -> 0 <= set_field b v pos bits < 256.
Proof.
  intros b v pos bits Hb Hp Hn H8. apply (below_pow2_bits _ 8); [lia|]. intros i Hi.
  rewrite set_field_bits by lia. replace ((pos <=? i) && (i <? pos + bits)) with false by lia.
  apply (below_pow2_bits b 8); [lia|exact Hb|exact Hi].
Qed.
Print Assumptions C04_bitfield_stays_byte.

Theorem C04_flag_store_bits : forall b t pos i, 0 <= pos -> 0 <= i -> Z.testbit (set_flag b t pos) i = if i =? pos then t else Z.testbit b i.
Proof. exact set_flag_bits. Qed.
Print Assumptions C04_flag_store_bits.

Example C04_bitfield_nonvacuous : set_field 0 (-1) 1 3 = 14 /\ get_field (set_field 0xff 0 1 3) 4 3 = 7 /\ set_field 0x81 13 1 3 = 0x8b.
Proof. vm_compute. repeat split. Qed.
