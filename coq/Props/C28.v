(* C28 Serial channels transfer bytes exactly once, in order.
   Model: Dev/Serial.v - Serial.update, the out-pipe (os.read of at most 22
   bytes), the EL6002 handshake (`react`) with arbitrary timing (oracle), and
   ghost histories of what was written / accepted / announced / delivered. *)
From Verif Require Import Dev.Serial Dev.Serial_proofs Dev.SerialLayout Dev.SerialLayout_proofs.

(* For EVERY history of application writes and cycles, whatever the terminal's
   timing: the chunks the terminal took, then the chunk currently presented,
   then the bytes still in the pipe are EXACTLY the bytes the application
   wrote (nothing lost, duplicated or reordered); every chunk has 1..22 bytes *)
Theorem C28_tx_exactly_once_in_order : forall evs, let s := fold_left step evs sys0 in
  concat (accepted s) ++ (if pend s then o_str (s_dev s) else []) ++ s_pipe s = written s /\
  Forall chunk_ok (accepted s).
Proof. intros evs s. split; [apply i_tx|apply i_chunks]; exact (reachable_inv evs). Qed.
Print Assumptions C28_tx_exactly_once_in_order.

(* every chunk the terminal announced was delivered to the application exactly
   once and in order (the last one may still be on its way) *)
Theorem C28_rx_exactly_once_in_order : forall evs, let s := fold_left step evs sys0 in
  delivered s = announced s \/ announced s = delivered s ++ [t_str (s_term s)].
Proof.
  intros evs s. pose proof (i_rx2 s (reachable_inv evs)) as X. destruct (Bool.eqb _ _); [left|right]; exact X.
Qed.
Print Assumptions C28_rx_exactly_once_in_order.

(* a chunk is announced by one toggle and kept until acknowledged *)
Theorem C28_kept_until_ack : forall evs o, let s := fold_left step evs sys0 in
  pend s = true ->
  let s' := step s (ECycle o) in
  o_treq (s_dev s') = o_treq (s_dev s) /\ o_str (s_dev s') = o_str (s_dev s) /\ s_pipe s' = s_pipe s.
Proof.
  intros evs o s Hp s'. destruct (cycle_tx s o (reachable_inv evs)) as [(Hq & Hpipe & Hs)|(Hf & _)]; [auto|congruence].
Qed.
Print Assumptions C28_kept_until_ack.

(* the request bit toggles only when a fresh chunk is taken from the pipe *)
Theorem C28_one_toggle_per_chunk : forall evs o, let s := fold_left step evs sys0 in
  let s' := step s (ECycle o) in
  o_treq (s_dev s') <> o_treq (s_dev s) ->
  s_pipe s <> [] /\ o_str (s_dev s') = firstn chunk (s_pipe s) /\ s_pipe s' = skipn chunk (s_pipe s).
Proof.
  intros evs o s s' Hn. destruct (cycle_tx s o (reachable_inv evs)) as [(Hq & _)|(_ & Hf)]; [contradiction|exact Hf].
Qed.
Print Assumptions C28_one_toggle_per_chunk.

(* the invariant behind them, in every reachable state (includes: receive_accept
   is toggled exactly when a chunk is delivered) *)
Theorem C28_invariant : forall evs, Inv (fold_left step evs sys0).
Proof. exact reachable_inv. Qed.
Print Assumptions C28_invariant.

Example C28_nonvacuous :
  let o a n := ECycle {| or_init := true; or_accept := a; or_announce := n |} in
  let s := fold_left step [o true None; o true None; o true None; EWrite [1;2;3]; o false None; o false (Some [9;8]); o true None; o true None] sys0 in
  accepted s = [[1;2;3]] /\ delivered s = [[9;8]] /\ written s = [1;2;3] /\ s_pipe s = [].
Proof. vm_compute. repeat split. Qed.

(* ---- the two channels of one terminal (ebpfcat/terminals.py EL6002 / EL6022; descriptors REGENERATED from the source on every
   run into Generated/SerialLayout.v).  The theorems above are about ONE channel; they carry over to a terminal with both
   channels in use because a write of any process variable of one channel - whatever bytes, as many as the variable is wide -
   leaves every byte of every variable of the other channel in the same image as it was. *)
Theorem C28_EL6002_channels_independent : forall img c1 c2 d1 d2 bs j dflt,
  In c1 EL6002_channels -> In c2 EL6002_channels -> c1 <> c2 -> In d1 EL6002_descs -> In d2 EL6002_descs -> d_sm d1 = d_sm d2 ->
  Z.of_nat (length bs) = d_width d1 -> hi c1 d1 <= Z.of_nat (length img) -> lo c2 d2 <= Z.of_nat j < hi c2 d2 ->
  nth j (wr img (Z.to_nat (lo c1 d1)) bs) dflt = nth j img dflt.
Proof. apply write_keeps_other_channel; vm_compute; reflexivity. Qed.
Print Assumptions C28_EL6002_channels_independent.

Theorem C28_EL6022_channels_independent : forall img c1 c2 d1 d2 bs j dflt,
  In c1 EL6022_channels -> In c2 EL6022_channels -> c1 <> c2 -> In d1 EL6022_descs -> In d2 EL6022_descs -> d_sm d1 = d_sm d2 ->
  Z.of_nat (length bs) = d_width d1 -> hi c1 d1 <= Z.of_nat (length img) -> lo c2 d2 <= Z.of_nat j < hi c2 d2 ->
  nth j (wr img (Z.to_nat (lo c1 d1)) bs) dflt = nth j img dflt.
Proof. apply write_keeps_other_channel; vm_compute; reflexivity. Qed.
Print Assumptions C28_EL6022_channels_independent.

(* inside a channel the string variable does not reach the byte of the three handshake bits (distinct bits of one byte), and it
   carries exactly the model's chunk size plus its length byte *)
Theorem C28_channel_layout :
  channel_ok EL6002_transmit_request EL6002_receive_accept EL6002_init_request EL6002_out_string = true /\
  channel_ok EL6002_transmit_accept EL6002_receive_request EL6002_init_accept EL6002_in_string = true /\
  channel_ok EL6022_transmit_request EL6022_receive_accept EL6022_init_request EL6022_out_string = true /\
  channel_ok EL6022_transmit_accept EL6022_receive_request EL6022_init_accept EL6022_in_string = true /\
  Z.of_nat chunk + 1 = d_width EL6002_out_string /\ Z.of_nat chunk + 1 = d_width EL6002_in_string /\
  Z.of_nat chunk + 1 = d_width EL6022_out_string /\ Z.of_nat chunk + 1 = d_width EL6022_in_string.
Proof. vm_compute. repeat split. Qed.
Print Assumptions C28_channel_layout.

(* not vacuous: two channels, eight variables each; writing channel 1's string into a 48-byte image keeps channel 2's control byte *)
Example C28_layout_nonvacuous :
  length EL6002_channels = 2%nat /\ length EL6002_descs = 8%nat /\
  nth 24 (wr (repeat 7 48) (Z.to_nat (lo (0, 0) EL6002_out_string)) (repeat 0 23)) 99 = 7.
Proof. vm_compute. repeat split. Qed.
