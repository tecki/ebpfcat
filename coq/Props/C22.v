(* C22 The dispatcher keeps fast groups running under loss and injection.
   Model (Ecat/Dispatch.v): `dispatch_core` - the loop-counter logic of
   EtherXDP.program (frame index against counter byte), `dispatch` - its effect
   on a frame and the counter map.  Validated on every run against the REAL
   dispatcher bytecode executed in the ISA model. *)
From Verif Require Import Ecat.Dispatch Ecat.Dispatch_proofs.

(* never drops (the random dropper is off): every frame is returned to the bus, handed to user space, or to
   its group's program *)
Theorem C22_never_drops : forall reg f m, snd (dispatch reg f m) <> ADrop.
Proof.
  intros reg f m. pose proof (dispatch_cases reg f m) as H.
  destruct (dispatch reg f m) as [[f' m'] a]. cbn [snd].
  intros ->. destruct H as (_ & _ & _ & []).
Qed.
Print Assumptions C22_never_drops.

(* non-EtherCAT frames, EtherCAT frames not starting with the identification datagram and frames of at most
   30 bytes pass unchanged *)
Theorem C22_foreign_unchanged : forall reg f m, is_group_frame f = false -> dispatch reg f m = (f, m, APass).
Proof. intros reg f m H. unfold dispatch. rewrite H. reflexivity. Qed.
Print Assumptions C22_foreign_unchanged.

(* a group without registered program: its frames are never handed to a program, and reach user space with
   the ethertype of the identification datagram; a frame goes straight back to the bus at most every other
   time (next theorem) *)
Theorem C22_unregistered_group : forall reg f m f' m' a, is_group_frame f = true -> (forall g, reg g = false) ->
  Forall (fun b => 0 <= b < 256) f -> dispatch reg f m = (f', m', a) ->
  (a = ATx \/ (a = APass /\ byte_at f' ETHERTYPE_POS = byte_at f (S DATA0) /\ byte_at f' (S ETHERTYPE_POS) = byte_at f DATA0)).
Proof.
  (* only the frame's own group needs to be unregistered: Ecat.Dispatch_proofs.unregistered_to_user *)
  intros reg f m f' m' a G R. exact (unregistered_to_user reg f m f' m' a G (R _)).
Qed.
Print Assumptions C22_unregistered_group.

(* after a frame of a group went straight back to the bus, the NEXT frame of that group - whatever its index -
   is handed to the group's program or to user space: never two consecutive frames bypass both *)
Theorem C22_no_two_bypasses : forall c i c' idx i', 0 <= c -> 0 <= i < 256 ->
  dispatch_core c i = (c', idx, KTx) -> snd (dispatch_core c' i') <> KTx.
Proof.
  (* the ranges of c and i are not used: dispatch_core_spec holds for all integers *)
  intros c i c' idx i' _ _ H. pose proof (dispatch_core_spec c i) as Even. rewrite H in Even.
  pose proof (dispatch_core_spec c' i') as Odd.
  destruct (dispatch_core c' i') as [[c'' idx'] []]; cbn; [lia|discriminate..].
Qed.
Print Assumptions C22_no_two_bypasses.

(* PARTIAL with respect to the property's last clause ("no more than two consecutive frames pass without
   running the group's program"): proved is C22_no_two_bypasses; counting frames handed to user space as well,
   the bounded exploration of the check finds histories with three (three frames injected at once), which the
   clause may or may not mean - see DESIGN.md. *)

Example C22_nonvacuous :
  dispatch_core 7 6 = (8, Some 8, KTx) /\ dispatch_core 8 7 = (9, Some 9, KTail) /\ dispatch_core 8 8 = (9, Some 9, KTail) /\
  dispatch_core 9 3 = (9, None, KUser).
Proof. vm_compute. auto. Qed.
