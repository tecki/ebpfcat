(* C07 Packet variables access exactly their declared bytes and byte order.
   Model: Gen/Packet.v - which Isa.v operations the generator composes for a
   read (LDX of the unsigned format, END byte swap for explicit orders, sign
   extension afterwards = EVar of C01's model), for a write (byte swap, STX)
   and for the minimum-size guard.  Spec: `unpack` / `pack` = Python's struct.
   The composition is validated on every run against the REAL generated XDP
   code executed in the ISA model on packets around the guard boundary. *)
From Verif Require Import Ebpf.Isa_proofs Gen.Denote Gen.Denote_proofs Gen.Packet Gen.Packet_proofs.

(* a read of ANY format / order from ANY bytes delivers struct.unpack's value
   (reduced to the nd-byte destination) *)
Theorem C07_read : forall f bs nd, In (pf_n f) [1; 2; 4; 8]%nat -> In nd [1; 2; 4; 8]%nat ->
  length bs = pf_n f -> Forall is_byte bs ->
  stored (read_expr f bs) nd = unpack f bs mod 256 ^ Z.of_nat nd.
Proof.
  intros f bs nd Hn Hd L B. destruct (code_load_spec f bs L B) as [E R]. unfold read_expr.
  rewrite stored_exact; [|exact Hd|cbn [ok]; split; assumption].
  cbn [exact]. unfold leaf_value, unpack. rewrite E. reflexivity.
Qed.
Print Assumptions C07_read.

(* a write of ANY value stores struct.pack's bytes at [p, p+n) and changes no
   other byte of the packet, nor its length *)
Theorem C07_write : forall f pk p v pk', pkt_write f pk p v = Some pk' ->
  length pk' = length pk /\
  read_bytes pk' p (pf_n f) = Some (pack f v) /\
  forall i, (Z.of_nat i < p \/ p + Z.of_nat (pf_n f) <= Z.of_nat i) -> nth i pk' 0 = nth i pk 0.
Proof.
  intros f pk p v pk'. unfold pkt_write. rewrite code_store_spec. intros (L & R & F)%write_bytes_frame.
  unfold zlen in F. rewrite pkt_pack_length in R, F. auto.
Qed.
Print Assumptions C07_write.

Theorem C07_roundtrip : forall f v, (0 < pf_n f)%nat ->
  (if pf_signed f then - 2 ^ (8 * Z.of_nat (pf_n f) - 1) <= v < 2 ^ (8 * Z.of_nat (pf_n f) - 1)
   else 0 <= v < 256 ^ Z.of_nat (pf_n f)) ->
  unpack f (pack f v) = v.
Proof. exact pkt_unpack_pack. Qed.
Print Assumptions C07_roundtrip.

(* the guard: the body runs exactly on packets longer than G, and then every
   access inside the guarded size is inside the packet - so the body runs on no
   packet shorter than its accesses need *)
Theorem C07_guard : forall G len, guard_passes G len = true <-> G < len.
Proof. intros G len. unfold guard_passes. lia. Qed.
Theorem C07_guard_read : forall G pk p n, guard_passes G (zlen pk) = true -> 0 <= p -> p + Z.of_nat n <= G ->
  exists bs, read_bytes pk p n = Some bs /\ length bs = n.
Proof.
  intros G pk p n Hg%C07_guard Hp Hn. rewrite read_bytes_ok by lia. eexists. split; [reflexivity|].
  rewrite firstn_length, skipn_length. unfold zlen in Hg. lia.
Qed.
Theorem C07_guard_write : forall G pk p f v, guard_passes G (zlen pk) = true -> 0 <= p -> p + Z.of_nat (pf_n f) <= G ->
  exists pk', pkt_write f pk p v = Some pk'.
Proof.
  intros G pk p f v Hg%C07_guard Hp Hn. unfold pkt_write. rewrite write_bytes_ok; [eexists; reflexivity|exact Hp|].
  unfold zlen at 1. rewrite code_store_spec, pkt_pack_length. lia.
Qed.
Print Assumptions C07_guard_write.

(* non-vacuity: a big-endian signed 2-byte variable *)
Example C07_nonvacuous :
  let f := {| pf_n := 2; pf_signed := true; pf_order := 2 |} in
  stored (read_expr f [255; 254]) 8 = (-2) mod 256 ^ 8 /\ pack f (-2) = [255; 254] /\
  pkt_write f [1; 2; 3; 4; 5] 2 (-2) = Some [1; 2; 255; 254; 5].
Proof. vm_compute. auto. Qed.
