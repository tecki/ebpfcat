(* C10 User-space map calls never overrun Python buffers.
   Model (Sys/MapBuf.v): for every operation of the Python API the size of the
   key and value buffers the library passes (`key_buffer`, `value_buffer`), the
   map the library created for that object, and what the kernel accesses through
   the pointers (`key_needed`, `value_needed`: key_size, value_size, for per-CPU
   maps the value size rounded up to 8 times the number of possible CPUs).
   Validated on every run: the real API runs against a stand-in for bpf() that
   knows the length of every buffer whose address it receives. *)
From Verif Require Import Sys.MapBuf Sys.MapBuf_proofs.

(* for EVERY API operation, EVERY declared map (any structure sizes, any
   number and formats of per-CPU variables) and EVERY number of possible CPUs *)
Theorem C10_buffers_suffice : forall a ncpu, 0 <= ncpu ->
  (forall total n, a = PerCpuRead total n -> n = ncpu) ->
  key_needed a ncpu <= key_buffer a /\ value_needed a ncpu <= value_buffer a.
Proof.
  (* the sign of ncpu is not used: for the per-CPU read both sides are the same multiple of ncpu *)
  intros a ncpu _ Hc. destruct a; cbn; try lia.
  (* per-CPU read: the kernel rounds the value size up to 8, and ArrayMap.collect has done so already *)
  rewrite (Hc _ _ eq_refl). change (array_size total) with (round8 total). rewrite round8_idem. lia.
Qed.
Print Assumptions C10_buffers_suffice.

(* the hypothesis matters: with the number of online CPUs (the pinned tree) the
   buffer is too small when more CPUs are possible *)
Theorem C10_online_cpus_refuted :
  exists a ncpu, value_buffer a < value_needed a ncpu /\ a = PerCpuRead 12 4 /\ ncpu = 16.
Proof. exists (PerCpuRead 12 4), 16. split; [reflexivity|split; reflexivity]. Qed.

Example C10_nonvacuous :
  value_needed (PerCpuRead 12 16) 16 = 256 /\ value_buffer (PerCpuRead 12 16) = 256 /\
  value_needed HashVarGet 16 = 8 /\ value_buffer HashVarGet = 8.
Proof. vm_compute. auto. Qed.
