(* C19 Process variables access their own bits and bytes on both paths.
   Model (Ecat/ProcVar.v): slow path = the Python statements of
   PacketVar.get/set on the bytearray current_data (|= mask, &= ~mask,
   struct '<' pack/unpack); fast path = the instructions the generator emits
   for a bit format (LDX B, AND/OR with the mask, shift, STX B) and for
   multi-byte formats.  Both are validated on every run against the REAL slow
   path and the REAL generated FastSyncGroup program on the same frames. *)
From Verif Require Import Ebpf.Isa_proofs Lib.Bits Ecat.ProcVar Gen.BitField_proofs.

(* writing a bit changes exactly that bit: every other bit of the byte ... *)
Theorem C19_bit_write_bits : forall data start k v, (start < length data)%nat -> 0 <= k ->
  forall j, 0 <= j -> Z.testbit (nth start (slow_set_bit data start k v) 0) j = if j =? k then v else Z.testbit (nth start data 0) j.
Proof.
  intros data start k v H Hk j Hj. unfold slow_set_bit. rewrite nth_set_at_same by exact H.
  exact (set_flag_bits _ v k j Hk Hj).    (* slow_set_bit computes BitField.set_flag, written out *)
Qed.
(* ... and every other byte of the frame, and its length, stay as they are *)
Theorem C19_bit_write_frame : forall data start k v, (start < length data)%nat ->
  length (slow_set_bit data start k v) = length data /\
  forall i, i <> start -> nth i (slow_set_bit data start k v) 0 = nth i data 0.
Proof.
  intros data start k v H. unfold slow_set_bit. split; [apply set_at_length|].
  intros i Hi. apply nth_set_at_other. auto.
Qed.
Print Assumptions C19_bit_write_bits.

(* the generated program computes the same byte / reads the same bit as Python *)
Theorem C19_bit_paths_agree_write : forall pkt start k v, 0 <= nth start pkt 0 < 256 -> 0 <= k < 8 ->
  fast_set_bit pkt start k v = slow_set_bit pkt start k v.
Proof.
  intros pkt start k v Hb Hk. unfold fast_set_bit, slow_set_bit. f_equal. set (b := nth start pkt 0) in *.
  rewrite (below_pow2_bits b 8) in Hb by lia.
  (* the register is cut to 64 bits, the store to 8; the byte has no bit from 8 on *)
  change 256 with (2 ^ 8). change W64 with (2 ^ 64). apply Z.bits_inj'. intros i Hi.
  rewrite Z.testbit_mod_pow2 by lia. destruct (Z.ltb_spec i 8) as [Lo|Hi8]; cbn [andb].
  - destruct v; [reflexivity|]. rewrite !Z.land_spec, Z.mod_pow2_bits_low by lia. reflexivity.
  - symmetry. destruct v.
    + rewrite set_bit_bits, Hb by lia. lia.
    + rewrite Z.land_spec, Hb by exact Hi8. reflexivity.
Qed.
Theorem C19_bit_paths_agree_read : forall pkt start k, 0 <= k ->
  negb (fast_get_bit pkt start k =? 0) = slow_get_bit pkt start k /\
  slow_get_bit pkt start k = Z.testbit (nth start pkt 0) k.
Proof.
  intros pkt start k Hk. unfold fast_get_bit, slow_get_bit. rewrite land_onehot by exact Hk.
  destruct (Z.testbit (nth start pkt 0) k).
  - rewrite Z.shiftr_shiftl_l, Z.sub_diag, !Z.shiftl_1_l by exact Hk.
    pose proof (Z.pow_pos_nonneg 2 k ltac:(lia) Hk). lia.
  - rewrite Z.shiftr_0_l. split; reflexivity.
Qed.
Print Assumptions C19_bit_paths_agree_write.

(* multi-byte variables: both paths store the same bytes, exactly n of them at
   the variable's position, and read the same value *)
Theorem C19_bytes_paths_agree : forall pkt start n v sg,
  fast_set pkt start n v = slow_set pkt start n v /\ fast_get pkt start n sg = slow_get pkt start n sg.
Proof. intros. unfold fast_set, slow_set. rewrite le_bytes_mod. split; reflexivity. Qed.
Theorem C19_bytes_write_frame : forall data start n v data', slow_set data start n v = Some data' ->
  length data' = length data /\
  read_bytes data' start n = Some (le_bytes n v) /\
  forall i, (Z.of_nat i < start \/ start + Z.of_nat n <= Z.of_nat i) -> nth i data' 0 = nth i data 0.
Proof.
  intros data start n v data' (L & R & F)%write_bytes_frame.
  unfold zlen in F. rewrite le_bytes_length in R, F. auto.
Qed.
Print Assumptions C19_bytes_write_frame.

Example C19_nonvacuous :
  slow_set_bit [1; 255; 3] 1 4 false = [1; 239; 3] /\ fast_set_bit [1; 255; 3] 1 4 false = [1; 239; 3] /\
  slow_get_bit [1; 16; 3] 1 4 = true /\ fast_get_bit [1; 16; 3] 1 4 = 1.
Proof. vm_compute. auto. Qed.
