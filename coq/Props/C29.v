(* C29 Process-based sync groups share device variables correctly.
   The device variables of all devices of a process-based sync group live in ONE
   shared byte array laid out by ArrayMap.collect (C08's model, Gen/Layout.v);
   parent and child process read and write it through the same descriptors.
   Validated on every run with the REAL ProcessSyncGroup: the layout equals the
   model's, values written in the parent are read in a spawned child process
   that unpickled the group, and back. *)
From Verif Require Import Ebpf.Isa_proofs Gen.Layout Gen.Layout_proofs Gen.Packet Gen.Packet_proofs.

(* one slot per device variable (also for a variable redefined in a derived
   device class), sized by the declaration attribute lookup finds *)
Theorem C29_one_slot_per_variable : forall l,
  NoDup (map fst (dedupe [] l)) /\ forall n s, In (n, s) (dedupe [] l) -> first_def n l = Some s.
Proof. exact collect_one_slot_per_name. Qed.
(* variables of different devices (different entries of the collection) never share storage *)
Theorem C29_no_shared_storage : forall sizes pos, Forall (fun s => 0 <= s) sizes ->
  pairwise_disjoint (positions pos sizes) /\ Forall (fun r => pos <= fst r) (positions pos sizes).
Proof. exact positions_disjoint. Qed.
(* a write of one variable leaves all other bytes of the shared array alone,
   and reading it back (in either process: same bytes) gives the value *)
Theorem C29_write_frame : forall l off b l', write_bytes l off b = Some l' ->
  length l' = length l /\ read_bytes l' off (length b) = Some b /\
  forall i, (Z.of_nat i < off \/ off + zlen b <= Z.of_nat i) -> nth i l' 0 = nth i l 0.
Proof. exact write_bytes_frame. Qed.
Theorem C29_value_roundtrip : forall f v, (0 < pf_n f)%nat ->
  (if pf_signed f then - 2 ^ (8 * Z.of_nat (pf_n f) - 1) <= v < 2 ^ (8 * Z.of_nat (pf_n f) - 1)
   else 0 <= v < 256 ^ Z.of_nat (pf_n f)) ->
  unpack f (pack f v) = v.
Proof. exact pkt_unpack_pack. Qed.
Print Assumptions C29_one_slot_per_variable.
Print Assumptions C29_no_shared_storage.
Print Assumptions C29_write_frame.
Print Assumptions C29_value_roundtrip.
