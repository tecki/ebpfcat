(* C27 The Valve device enforces its safe state on timeout.
   Model: Dev/Valve.v (Valve.update / reset); every statement holds for every
   valve state, hence for every state reachable by any history. *)
From Verif Require Import Dev.Valve Dev.Valve_proofs.

(* coil follows the target while the switches confirm the commanded position
   (default safe state) or the moving time has not elapsed since lastGood *)
Theorem C27_follow : forall moving v op cl now,
  (confirms (coil v) op cl = true \/ now - lastGood v < moving) ->
  let v' := update false moving v op cl now in
  coil v' = target v /\ target v' = target v /\ error v' = error v.
Proof. intros moving v op cl now H. apply follow. rewrite confirms_default. exact H. Qed.
Print Assumptions C27_follow.

(* otherwise: error, and coil and target go to the safe state (default) *)
Theorem C27_timeout_default : forall moving v op cl now,
  confirms (coil v) op cl = false -> moving <= now - lastGood v ->
  let v' := update false moving v op cl now in
  error v' = true /\ coil v' = false /\ target v' = false.
Proof. intros moving v op cl now H T. apply timeout; [rewrite confirms_default|]; assumption. Qed.
Print Assumptions C27_timeout_default.

(* the error reaction for BOTH safe-state settings *)
Theorem C27_timeout : forall safe moving v op cl now,
  let inPosition := negb (Bool.eqb op cl) in
  let isCorrect := if Bool.eqb (coil v) safe then cl || negb op else op || negb cl in
  inPosition && isCorrect = false -> moving <= now - lastGood v ->
  let v' := update safe moving v op cl now in
  error v' = true /\ coil v' = safe /\ target v' = safe.
Proof. exact timeout. Qed.
Print Assumptions C27_timeout.

Theorem C27_follow_any_safe : forall safe moving v op cl now,
  let inPosition := negb (Bool.eqb op cl) in
  let isCorrect := if Bool.eqb (coil v) safe then cl || negb op else op || negb cl in
  (inPosition && isCorrect = true \/ now - lastGood v < moving) ->
  let v' := update safe moving v op cl now in
  coil v' = target v /\ target v' = target v /\ error v' = error v.
Proof. exact follow. Qed.
Print Assumptions C27_follow_any_safe.

(* "since they last did": lastGood is set exactly by a reset or a confirming update *)
Theorem C27_lastgood : forall moving v e,
  let v' := step false moving v e in
  lastGood v' = match e with
                | EReset now => now
                | ESetTarget _ => lastGood v
                | EUpdate op cl now => if confirms (coil v) op cl then now else lastGood v
                end.
Proof.
  intros moving v [now|t|op cl now]; cbn [step reset lastGood]; try reflexivity.
  unfold update. rewrite confirms_default. destruct (confirms _ _ _); [reflexivity|].
  destruct (now - lastGood v <? moving); reflexivity.
Qed.
Print Assumptions C27_lastgood.

Example C27_nonvacuous :
  let v := fold_left (step true 5) [EReset 10; ESetTarget false; EUpdate false false 12; EUpdate false false 15]
                     {| coil := true; target := true; error := true; lastGood := 0 |} in
  v = {| coil := true; target := true; error := true; lastGood := 10 |}.
Proof. vm_compute. reflexivity. Qed.
