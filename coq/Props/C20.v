(* C20 A terminal's FMMUs are never shared by two live mappings.
   Model: Ecat/Fmmu.v (Terminal.map_fmmu slot choice with Python slice /
   index / negative-index semantics; any order of map and unmap). *)
From Verif Require Import Ecat.Fmmu Ecat.Fmmu_proofs Ecat.FmmuGroup Ecat.FmmuGroup_proofs.
(* Lib.ListX is not imported: set_at below is Fmmu.v's (set_at_ListX turns it into the library's), and library lemmas
   are used by qualified name. *)

(* after ANY sequence of overlapping map/unmap operations on a terminal with
   any number of FMMUs, the live mappings use pairwise different, existing
   FMMUs, each holding that mapping's logical address *)
Theorem C20_distinct_slots : forall n ops, let s := fold_left step ops (init n) in
  NoDup (map fst (live s)) /\
  forall i lg, In (i, lg) (live s) ->
    0 <= i < Z.of_nat (length (tbl s)) /\ nth_error (tbl s) (Z.to_nat i) = Some (Some lg).
Proof.
  intros n ops s. destruct (ListX.fold_left_inv Inv step step_inv ops _ (inv_init n)) as [IL IN _].
  split; [exact IN|exact IL].
Qed.
Print Assumptions C20_distinct_slots.

(* a successful mapping took a slot that was free *)
Theorem C20_takes_free : forall u w lg i u', map_enter u w lg = Some (i, u') ->
  0 <= i < zlen u /\ free u (Z.to_nat i) /\ u' = set_at (Z.to_nat i) (Some lg) u.
Proof. intros u w lg i u' H. rewrite set_at_ListX. exact (enter_takes_free _ _ _ _ _ H). Qed.
Print Assumptions C20_takes_free.

(* with no free FMMU the mapping fails instead of reusing one *)
Theorem C20_full_fails : forall u w lg, (forall j, ~ free u j) -> map_enter u w lg = None.
Proof.
  intros u w lg H. unfold map_enter. destruct (slot_index u w) as [i|] eqn:E; [|reflexivity].
  destruct (slot_free _ _ _ E) as [_ F]. elim (H _ F).
Qed.
Print Assumptions C20_full_fails.

(* ending a mapping frees exactly its own FMMU *)
Theorem C20_release_own : forall u i u', 0 <= i -> map_exit u i = Some u' ->
  free u' (Z.to_nat i) /\ length u' = length u /\
  forall j, j <> Z.to_nat i -> nth_error u' j = nth_error u j.
Proof.
  intros u i u' Hi H. apply py_set_nonneg in H; [|exact Hi]. destruct H as [R ->]. unfold zlen in R.
  split; [apply ListX.nth_error_set_at_same; lia|]. split; [apply ListX.set_at_length|].
  intros j Hj. apply ListX.nth_error_set_at_other. congruence.
Qed.
Print Assumptions C20_release_own.

Example C20_nonvacuous :
  let s := fold_left step [Map true 4096; Map false 6144; Map true 8192; Unmap 0; Map true 12288] (init 3) in
  tbl s = [Some 8192; Some 12288; Some 6144] /\ live s = [(2, 6144); (0, 8192); (1, 12288)].
Proof. vm_compute. split; reflexivity. Qed.

(* why choosing and booking a slot must be one step (no await in between): two mappings that both choose
   before either books are handed the same FMMU *)
Theorem C20_split_booking_refuted :
  let u := [None; None] in
  slot_index u true = Some 1 /\ slot_index u true = slot_index u true /\
  (forall u1, py_set u 1 (Some 4096) = Some u1 -> slot_index u1 true <> Some 1).
Proof.
  split; [reflexivity|]. split; [reflexivity|].
  intros u1 H. vm_compute in H. injection H as <-. vm_compute. discriminate.
Qed.
Print Assumptions C20_split_booking_refuted.

(* ---- several sync groups share one terminal (Ecat/FmmuGroup.v: SyncGroupBase.map_fmmu maps the output image,
   then the input image, in one exit stack).  A group that is refused - also after its output image had already
   been mapped - leaves the terminal's bookings EXACTLY as it found them, so the groups that are running keep
   theirs ... *)
Theorem C20_refused_group_restores : forall u out_ inp, group_enter u out_ (Some inp) = None -> unwind u out_ inp = Some u.
Proof.
  intros u out_ inp. unfold group_enter, unwind. destruct out_ as [lg|].
  - destruct (map_enter u true lg) as [[i u1]|] eqn:E1; cbn [option_map fst snd]; [|reflexivity].
    destruct (map_enter u1 false inp) as [[j u2]|]; [discriminate|]. intros _.
    exact (exit_after_enter _ _ _ _ _ E1).
  - destruct (map_enter u false inp) as [[j u2]|]; [discriminate | reflexivity].
Qed.
Print Assumptions C20_refused_group_restores.

(* ... and a group that is accepted gets only FMMUs that were free, distinct ones, and changes no other entry
   of the table *)
Theorem C20_accepted_group : forall u out_ inp sl u', group_enter u out_ inp = Some (sl, u') ->
  length u' = length u /\
  (forall i, In i sl -> 0 <= i < zlen u /\ free u (Z.to_nat i)) /\
  (forall j, ~ In (Z.of_nat j) sl -> nth_error u' j = nth_error u j) /\
  NoDup sl.
Proof. intros u out_ inp sl u' H%group_enter_took. unfold took in H. tauto. Qed.
Print Assumptions C20_accepted_group.

Example C20_groups_nonvacuous :
  let s := fold_left gstep [GMap 0 (Some 6144) (Some 4096); GMap 1 (Some 100) (Some 200); GUnmap 0; GMap 2 None (Some 300)] (ginit 2) in
  gtbl s = [None; Some 300] /\ groups s = [(2%nat, [1])] /\ unwind [Some 4096; Some 6144] (Some 100) 200 = Some [Some 4096; Some 6144].
Proof. vm_compute. repeat split. Qed.
