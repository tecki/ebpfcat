(* C24 Cancelling a sync group releases its resources and ends cancelled.
   Model: Sys/Cancel.v - the control structure of SyncGroupBase.run /
   FastSyncGroup.run as an automaton over the bus-level events produced so far,
   and the events produced by the finally blocks / context managers. *)
From Verif Require Import Sys.Cancel Sys.Cancel_proofs.

(* for EVERY prefix of events the run coroutine can have produced when the
   cancellation arrives (any number of cycles, any subset of OP requests
   already sent): each terminal that was asked to go OPERATIONAL is asked
   back to SAFE-OPERATIONAL by the clean-up, and a registered kernel program
   is unregistered *)
Theorem C24_cleanup : forall c pre s, track c (start c) pre = Some s ->
  (forall t, op_requested t pre -> In (AlWrite t 4) (cleanup c s)) /\
  (In Reg pre -> In Unreg (cleanup c s)).
Proof.
  intros c pre s H. unfold cleanup. split.
  - intros t Ht. destruct (track_after c _ _ (advance_operational c t) pre _ _ H (or_intror Ht)) as [P R].
    rewrite P. apply in_or_app. left. apply safeops_all, R.
  - intros I. rewrite (track_after c _ _ (advance_registered c) pre _ _ H (or_intror I)).
    apply in_or_app. right. now left.
Qed.
Print Assumptions C24_cleanup.

Example C24_nonvacuous :
  let c := {| fast := true; rw := [true; false; true] |} in
  let pre := [Reg; Frame; Frame; FmmuSet 0 1; FmmuSet 0 2; AlWrite 0 4; AlWrite 1 4; Frame; AlWrite 2 8] in
  option_map (cleanup c) (track c (start c) pre) = Some [AlWrite 0 4; AlWrite 2 4; Unreg].
Proof. vm_compute. reflexivity. Qed.
