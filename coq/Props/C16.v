(* C16 SDO transfers carry values byte-for-byte.
   Model: Ecat/Sdo.v - the CoE messages Terminal.sdo_write produces
   (expedited / normal / segmented, with subindex or complete access), the
   assembly Terminal.sdo_read performs, and a protocol-conformant SDO server
   (ETG.1000.6) that checks sizes and toggle bits. *)
From Verif Require Import Ecat.Sdo Ecat.Sdo_proofs.

(* download: for EVERY value (any length < 2^32), every mailbox size >= 24,
   with a subindex or complete access, the conformant server ends up holding
   exactly the value (it would abort on a wrong size or toggle bit) *)
Theorem C16_download : forall mbx data index sub,
  (24 <= mbx)%nat -> Z.of_nat (length data) < 4294967296 ->
  srv_download (dl_requests mbx data index sub) = Some data.
Proof.
  intros mbx data index sub Hm Hn. unfold dl_requests.
  destruct sub as [s|]; [|apply dl_normal_ok; auto; lia].
  destruct ((0 <? length data)%nat && (length data <=? 4)%nat) eqn:E; [|apply dl_normal_ok; auto; lia].
  (* expedited: one to four bytes *)
  destruct data as [|a [|b [|c [|d [|e t]]]]]; try discriminate E; reflexivity.
Qed.
Print Assumptions C16_download.

(* upload: the client returns exactly the server's value; the toggle bits it
   requested alternate starting at 0 *)
Theorem C16_upload : forall mbx data index sub ca,
  (24 <= mbx)%nat -> Z.of_nat (length data) < 4294967296 -> 0 <= index < 65536 ->
  exists k, sdo_read (ul_responses mbx data index sub ca) index = Some (data, alt 0 k).
Proof.
  intros mbx data index sub ca Hm Hn Hi. unfold ul_responses.
  destruct ((0 <? length data)%nat && (length data <=? 4)%nat && negb ca) eqn:E;
    rewrite sdo_read_init by exact Hi.
  - (* expedited: one to four bytes *)
    exists O. destruct data as [|a [|b [|c [|d [|e t]]]]]; try discriminate E; reflexivity.
  - change (Z.testbit 65 1) with false. cbv iota.
    rewrite firstn_app_exact', skipn_app_exact' by apply le_bytes_length.
    rewrite le_val_le_bytes_small, Nat2Z.id by (split; [apply Nat2Z.is_nonneg|exact Hn]).
    destruct (Nat.ltb_spec (mbx - 16) (length data)) as [L|L].
    + apply (ul_collect_ok (mbx - 9) data); try lia. left; reflexivity.
    + exists O. rewrite firstn_all2 by lia. cbn [ul_collect].
      now rewrite Nat.leb_refl, Nat.eqb_refl.
Qed.
Print Assumptions C16_upload.

(* every mailbox message (6-byte header included) fits into the mailbox *)
Theorem C16_fits : forall mbx data index sub ca, (24 <= mbx)%nat ->
  Forall (fun p => (6 + length p <= mbx)%nat) (dl_requests mbx data index sub) /\
  Forall (fun p => (6 + length p <= mbx)%nat) (ul_responses mbx data index 1 ca).
Proof. intros mbx data index sub ca Hm. split; [apply download_fits|apply upload_fits]; lia. Qed.
Print Assumptions C16_fits.

Example C16_nonvacuous :
  let data := map Z.of_nat (seq 1 40) in
  length (dl_requests 24 data 32768 (Some 3)) = 4%nat /\
  srv_download (dl_requests 24 data 32768 (Some 3)) = Some data /\
  sdo_read (ul_responses 24 data 32768 3 false) 32768 = Some (data, [0; 16; 0]).
Proof. vm_compute. repeat split. Qed.
