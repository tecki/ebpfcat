(* C06 In-place addition on 4/8-byte variables never loses updates.
   Model (Gen/Xadd.v): a program instance is a sequence of one-instruction
   events that either leave the shared cell alone or atomically add to it (the
   XADD the generator emits for += / -= on 4/8-byte variables); an execution of
   several instances is ANY interleaving of their sequences.  That the real
   statement compiles to such a sequence is validated on every run by executing
   2-3 instances of the real code on a shared map in the ISA model under
   adversarial and random schedules. *)
From Verif Require Import Gen.Xadd Gen.Xadd_proofs.

(* for ANY number of instances, ANY lengths and ANY interleaving, the cell
   ends up changed by exactly the sum of all amounts (mod its width) *)
Theorem C06_no_lost_update : forall n ls m c, Forall atomic_only ls -> interleave ls m ->
  0 <= c < 256 ^ Z.of_nat n ->
  fold_left (apply_ev n) m c = (c + total ls) mod 256 ^ Z.of_nat n.
Proof.
  (* atomic_only is not used: apply_ev lets Load and StoreSum leave the cell alone, like Priv *)
  intros n ls m c _ Hi Hc. rewrite fold_apply by exact Hc. now rewrite (interleave_adds ls m Hi).
Qed.
Print Assumptions C06_no_lost_update.

(* the ISA's XADD instruction is a single step that adds the source register
   to the cell: it abstracts to one `Add` event *)
Theorem C06_isa_xadd_atomic : forall prog pc s i, nth_error prog pc = Some i ->
  Z.land (i_op i) 7 = 3 -> Z.land (i_op i) 224 = 192 ->
  let n := size_of (i_op i) in
  let addr := wrap64 (reg s (i_dst i) + i_off i) in
  forall old s', load s addr n = Some old ->
  store s addr n (xadd_cell n old (reg s (i_src i))) = Some s' ->
  step prog pc s = (s', Running, S pc).
Proof.
  intros prog pc s i Hi Hc Hm n addr old s' Hl Hs. unfold step. rewrite Hi, Hc, Hm. cbn [Z.eqb Pos.eqb orb].
  fold n. fold addr. rewrite Hl. unfold xadd_cell in Hs. rewrite Hs. reflexivity.
Qed.
Print Assumptions C06_isa_xadd_atomic.

(* why the property is about XADD: a load / add / store lowering loses an update *)
Theorem C06_rmw_refuted :
  let sched := [(0, Load 0); (1, Load 0); (0, StoreSum 0 1); (1, StoreSum 0 1)]%nat in
  fst (fold_left (rmw_step 4) sched (10, [0; 0])) = 11 /\ 11 <> (10 + (1 + 1)) mod 256 ^ 4.
Proof. vm_compute. split; [reflexivity|discriminate]. Qed.

(* non-vacuity: three instances, an interleaving *)
Example C06_nonvacuous :
  let ls := [[Priv; Add 5; Priv]; [Add (-7)]; [Priv; Priv; Add 4294967295]] in
  Forall atomic_only ls /\ interleave ls [Priv; Priv; Add (-7); Add 5; Priv; Priv; Add 4294967295] /\
  fold_left (apply_ev 4) [Priv; Priv; Add (-7); Add 5; Priv; Priv; Add 4294967295] 3 = 0.
Proof.
  split; [repeat constructor|]. split; [|reflexivity].
  apply (il_step [] Priv [Add 5; Priv]). apply (il_step [[Add 5; Priv]; [Add (-7)]] Priv [Priv; Add 4294967295] []).
  apply (il_step [[Add 5; Priv]] (Add (-7)) [] [[Priv; Add 4294967295]]).
  apply (il_step [] (Add 5) [Priv]). apply (il_step [] Priv []).
  apply (il_step [[]; []] Priv [Add 4294967295] []). apply (il_step [[]; []] (Add 4294967295) [] []).
  constructor. repeat constructor.
Qed.
