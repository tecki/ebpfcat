(* C09 Hash-map variables and Dict entries agree between Python and program.
   Model: Sys/HashMapSpec.v - a hash map as both sides see it through the
   kernel's lookup / update / delete: a table from key bytes to a value;
   structure members are laid out at the running sum of their sizes
   (Gen/Layout.v `positions`, the same offsets on both sides because both use
   Member.relative_addr).  Executable: Corr/C09.v serves the helper calls on top
   of the ISA model.  Validated on every run: the real Python API (against the
   bpf() stand-in) and the real generated program exchange the map contents. *)
From Verif Require Import Sys.HashMapSpec Sys.HashMapSpec_proofs Gen.Layout Gen.Layout_proofs.

(* what one side stores under a key, the other finds under that key *)
Theorem C09_lookup_update_same : forall (A : Type) k (v : A) t, t_lookup k (t_update k v t) = Some v.
Proof. intros. now rewrite lookup_update, bytes_eqb_refl. Qed.
(* every other key - every other hash-map variable - is an independent cell *)
Theorem C09_cells_independent : forall (A : Type) k k' (v : A) t, bytes_eqb k' k = false ->
  t_lookup k' (t_update k v t) = t_lookup k' t.
Proof. intros A k k' v t N. now rewrite lookup_update, N. Qed.
(* deleting (also: pop) removes exactly that key; absent keys are not found *)
Theorem C09_delete : forall (A : Type) k k' (t : @table A),
  t_lookup k (t_delete k t) = None /\ (bytes_eqb k' k = false -> t_lookup k' (t_delete k t) = t_lookup k' t).
Proof. intros. rewrite !lookup_delete, bytes_eqb_refl. split; [reflexivity|]. now intros ->. Qed.
Print Assumptions C09_lookup_update_same.
Print Assumptions C09_cells_independent.
Print Assumptions C09_delete.

(* members of a structure (any sizes) occupy pairwise disjoint bytes *)
Theorem C09_members_disjoint : forall sizes, Forall (fun s => 0 <= s) sizes -> pairwise_disjoint (positions 0 sizes).
Proof. intros sizes H. apply (positions_disjoint sizes 0 H). Qed.
Print Assumptions C09_members_disjoint.

Example C09_nonvacuous :
  let t := t_update [2] 7%nat (t_update [1] 5%nat []) in
  t_lookup [1] t = Some 5%nat /\ t_lookup [2] t = Some 7%nat /\ t_lookup [3] t = None /\
  t_lookup [1] (t_delete [1] t) = None.
Proof. vm_compute. auto. Qed.
