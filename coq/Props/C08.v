(* C08 Array-map variables read back the same on both sides.
   Model (Gen/Layout.v): ArrayMap.collect - for every program / subprogram
   instance the declarations of its MRO (most derived class first) are reduced
   to one entry per name (`dedupe`), all entries are sorted by size and placed
   at the running sum (`positions`).  The real layout of random class
   hierarchies is compared with it on every run; values travel both ways between
   the real Python descriptors and the real generated program (ISA model). *)
From Verif Require Import Gen.Layout Gen.Layout_proofs Gen.Packet Gen.Packet_proofs.

(* exactly one slot per variable name, and its size is the size of the
   declaration that attribute lookup finds (the first in the MRO) *)
Theorem C08_one_slot_per_name : forall l,
  NoDup (map fst (dedupe [] l)) /\ forall n s, In (n, s) (dedupe [] l) -> first_def n l = Some s.
Proof. exact collect_one_slot_per_name. Qed.
Print Assumptions C08_one_slot_per_name.

(* the slots of ANY collection are pairwise disjoint *)
Theorem C08_slots_disjoint : forall sizes pos, Forall (fun s => 0 <= s) sizes ->
  pairwise_disjoint (positions pos sizes) /\ Forall (fun r => pos <= fst r) (positions pos sizes).
Proof. exact positions_disjoint. Qed.
Print Assumptions C08_slots_disjoint.

(* what one side stores, the other reads: Python packs / unpacks native
   (little-endian) formats, the program loads / stores the same bytes (C07's
   codec with native order) *)
Theorem C08_value_roundtrip : forall f v, (0 < pf_n f)%nat ->
  (if pf_signed f then - 2 ^ (8 * Z.of_nat (pf_n f) - 1) <= v < 2 ^ (8 * Z.of_nat (pf_n f) - 1)
   else 0 <= v < 256 ^ Z.of_nat (pf_n f)) ->
  Gen.Packet.unpack f (Gen.Packet.pack f v) = v.
Proof. exact pkt_unpack_pack. Qed.
Print Assumptions C08_value_roundtrip.

(* the repaired defect: a name redefined in a subclass was collected twice *)
Theorem C08_pinned_refuted :
  let mro := [(1, 8); (2, 4); (1, 4)] in ~ NoDup (map fst (dedupe_pinned mro)).
Proof. intros mro H. inversion H as [|? ? N _]. apply N. cbn. auto. Qed.

Example C08_nonvacuous :
  dedupe [] [(1, 8); (2, 4); (1, 4); (3, 2)] = [(1, 8); (2, 4); (3, 2)] /\
  positions 0 [8; 4; 2] = [(0, 8); (8, 4); (12, 2)].
Proof. split; reflexivity. Qed.
