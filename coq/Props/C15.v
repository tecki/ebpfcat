(* C15 Mailbox exchanges with a terminal are serialised and counted.
   Model: Sys/MbxLock.v.  Part A: an asyncio lock with FIFO hand-over guarding
   the exchange of tasks in one process (MailboxLock, and the in-process half
   of ParallelMailboxLock).  Part B: the byte-range lock and the counter byte
   of the shared lock file, any number of processes, any interleaving of the
   atomic file operations, including the creator's late initialisation. *)
From Verif Require Import Sys.MbxLock Sys.MbxLock_proofs.

(* A: for EVERY interleaving of acquire / send / release of any number of
   users, the log is a sequence of whole exchanges (no interleaving) and the
   counters sent are 0, then the successor in 1..7 of the previous one *)
Theorem C15_in_process : forall evs, let s := fold_left astep evs ast0 in
  bracketed None (log s) = true /\ chain None (sent_counters (log s)) = true.
Proof.
  intros evs s. destruct (a_reachable evs) as [B (lastc & C & _)]. split.
  - rewrite <- (app_nil_r (log s)). exact (B []).
  - exact (chained_chain _ _ C).
Qed.
Print Assumptions C15_in_process.

(* B: for EVERY interleaving of the lock-file operations of n processes
   (lock attempt, read, message, write back, unlock, creator's initialisation):
   the counters of all messages of all processes form one chain, and only the
   holder of the byte-range lock is ever inside an exchange *)
Theorem C15_cross_process : forall n evs, let s := fold_left bstep evs (bst0 n) in
  chain None (map snd (btrace s)) = true /\
  (forall q, pget s q <> PIdle -> flock s = Some q).
Proof.
  intros n evs s. destruct (b_reachable n evs) as [X (lastc & C & _)]. split; [|exact X].
  exact (chained_chain _ _ C).
Qed.
Print Assumptions C15_cross_process.

(* a participant that reads the counter while the file is still empty gets 0 *)
Theorem C15_open_during_create : forall s p, file s = None -> pget s p = PLocked ->
  pget (bstep s (BRead p)) p = PHave 0.
Proof.
  intros s p F L. cbn [bstep]. rewrite L, F.
  rewrite pget_set by (apply pget_bound; congruence). now rewrite Nat.eqb_refl.
Qed.
Print Assumptions C15_open_during_create.

(* the successor function the code uses stays within 1..7 *)
Theorem C15_counter_cycle : forall c, 0 <= c -> 1 <= next_counter c <= 7.
Proof. intros c H. unfold next_counter. lia. Qed.

Example C15_nonvacuous :
  let s := fold_left bstep [BLock 1; BRead 1; BSend 1; BLock 0; BWrite 1; BUnlock 1; BInit; BLock 0; BRead 0; BSend 0; BSend 0] (bst0 2) in
  btrace s = [(1%nat, 0); (0%nat, 1); (0%nat, 2)] /\ file s = Some 1 /\
  log (fold_left astep [Acquire 0; Acquire 1; Send 0; Release 0; Send 1; Release 1] ast0)
  = [Granted 0; Sent 0 0; Released 0; Granted 1; Sent 1 1; Released 1].
Proof. vm_compute. repeat split. Qed.
