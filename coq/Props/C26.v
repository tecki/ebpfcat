(* C26 The fast Motor device commands exactly its limited control law.
   Model: Dev/Motor.v `motor_impl` - Motor.program statement by statement with
   the machine semantics of the generated code (64-bit signed stmp register,
   32-bit unsigned DeviceVars, 16-bit signed velocity output); validated on
   every run against the REAL generated program executed in the ISA model.
   `motor_spec` is the control law of the property. *)
From Verif Require Import Dev.Motor Dev.Motor_proofs.

(* for ALL inputs in the property's ranges (any target, position, gain,
   acceleration limit, switch states; velocity limit within the 16-bit output;
   previous velocity within the limit; desired velocity fitting 64 bits) *)
Theorem C26_control_law : forall i, pre i -> motor_impl i = motor_spec i.
Proof. exact motor_correct. Qed.
Print Assumptions C26_control_law.

(* never above the velocity limit, never into an active limit switch, never
   changing by more than the acceleration limit except to stop *)
Theorem C26_safe : forall i, pre i ->
  let v := motor_impl i in
  - vmax i <= v <= vmax i /\
  (low i = true -> 0 <= v) /\ (high i = true -> v <= 0) /\
  (v = 0 \/ - acc i <= v - prev i <= acc i).
Proof.
  intros i H. rewrite (motor_correct i H). apply spec_safe; unfold pre in H; lia.
Qed.
Print Assumptions C26_safe.

(* the program of the pinned tree stored the acceleration-limited value into
   the 16-bit output BEFORE limiting the velocity (repaired by a fix: commit) *)
Definition motor_impl_pinned (i : inputs) : Z :=
  let st0 := s64 (gain i * (target i - pos i)) in
  let st1 := if s64 (prev i + acc i) <? st0 then s64 (prev i + acc i) else st0 in
  let st2 := if s64 (st1 + acc i) <? prev i then s64 (prev i - acc i) else st1 in
  let v := s16 st2 in
  let v3 := if vmax i <? v then vmax i else v in
  let v4 := if v3 <? - vmax i then - vmax i else v3 in
  let v5 := if low i && (v4 <? 0) then 0 else v4 in
  if high i && (0 <? v5) then 0 else v5.
Theorem C26_pinned_refuted : exists i, pre i /\ motor_impl_pinned i = -1000 /\ motor_spec i = 1000.
Proof.
  exists {| gain := 1; target := 100000; acc := 40000; vmax := 1000; pos := 0; prev := 0; low := false; high := false |}.
  split; [unfold pre, W32; cbn; lia|]. split; vm_compute; reflexivity.
Qed.

Example C26_nonvacuous :
  let i := {| gain := 3; target := 5000; acc := 200; vmax := 1500; pos := -70000; prev := 1400; low := true; high := false |} in
  pre i /\ motor_impl i = 1500.
Proof. split; [unfold pre, W32; cbn; lia|vm_compute; reflexivity]. Qed.
