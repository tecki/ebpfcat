(* C18 Sync groups give each terminal disjoint, exactly-sized process data.
   Model: Ecat/Alloc.v (EBPFTerminal.allocate, AerotechBase.allocate,
   SterilePacket.append_fmmu, SyncGroupBase.allocate) on top of Ecat/Frame.v. *)
From Verif Require Import Ecat.Frame Ecat.Alloc Ecat.Alloc_proofs.

(* For EVERY list of terminals (any sizes, flags, addressing mode, including
   Aerotech-style allocators) whose allocation is accepted:
   - the reported frame position / logical address of each terminal area is
     `resolve` of its base (so logical - window base = position - datagram data start);
   - all regions (size = declared size) are pairwise disjoint in the frame;
   - a direct region lies inside its own datagram before the FMMU datagrams,
     an FMMU region inside the LRD (resp. LWR) data of length r_fin (r_fout);
   - the frame is not larger than MAXSIZE and both logical windows are shorter
     than the distance between them. *)
Theorem C18_regions : forall ts logical r, Forall wf_term ts -> allocate ts logical = Some r ->
  exists bs in_pos out_pos,
    r_assign r = map (fun b => (resolve in_pos out_pos logical (logical + SterilePacket_logical_addr_inc) (fst b),
                                resolve in_pos out_pos logical (logical + SterilePacket_logical_addr_inc) (snd b))) bs /\
    length bs = length ts /\
    ForallOrdPairs (adisj in_pos out_pos) (all_regs ts bs) /\
    Forall (final_bound in_pos (r_fin r) (r_fout r)) (all_regs ts bs) /\
    16 <= in_pos /\
    out_pos = in_pos + (if truthy (r_fin r) then 12 + r_fin r else 0) /\
    p_size (sp (r_pk r)) = out_pos + (if truthy (r_fout r) then 12 + r_fout r else 0) /\
    p_size (sp (r_pk r)) <= Packet_MAXSIZE /\
    0 <= r_fin r < SterilePacket_logical_addr_inc /\ 0 <= r_fout r < SterilePacket_logical_addr_inc.
Proof.
  intros ts logical r Hwf H. unfold allocate in H.
  destruct (alloc_terms init_astate ts) as [[st bs]|] eqn:E1; [|discriminate].
  destruct (append_fmmu st logical) as [[st2 [[[in_pos out_pos] lin] lout]]|] eqn:E2; [|discriminate].
  injection H as <-. cbn [r_assign r_fin r_fout r_pk].
  destruct (alloc_terms_inv ts _ _ _ _ Hwf inv_init E1) as [L I]. pose proof I as (W & B & _).
  destruct (append_fmmu_inv _ _ _ _ _ _ _ W E2) as (-> & -> & -> & Eout & Esz & Max).
  exists bs, (psize st), out_pos.
  split; [reflexivity|]. split; [exact L|]. split; [exact (inv_adisj _ _ _ I Eout)|]. split; [exact B|].
  (* a frame of at most MAXSIZE bytes holds both images, and MAXSIZE is less than the distance of the two windows *)
  destruct W as (Hp & Hfi & Hfo). unfold psize, SterilePacket_logical_addr_inc, Packet_MAXSIZE, truthy in *.
  destruct (Z.eqb_spec (fin_size st) 0), (Z.eqb_spec (fout_size st) 0); cbn [negb] in *; lia.
Qed.
Print Assumptions C18_regions.

(* logical address windows of different sync groups of one master are disjoint *)
Theorem C18_windows_disjoint : forall ts1 ts2 k1 k2 r1 r2 a1 a2,
  Forall wf_term ts1 -> Forall wf_term ts2 -> k1 <> k2 ->
  allocate ts1 (fmmu_addr k1) = Some r1 -> allocate ts2 (fmmu_addr k2) = Some r2 ->
  in_window k1 (r_fin r1) (r_fout r1) a1 -> in_window k2 (r_fin r2) (r_fout r2) a2 -> a1 <> a2.
Proof.
  intros ts1 ts2 k1 k2 r1 r2 a1 a2 W1 W2 Hk A1 A2 I1 I2.
  destruct (C18_regions _ _ _ W1 A1) as (? & ? & ? & _ & _ & _ & _ & _ & _ & _ & _ & F1 & O1).
  destruct (C18_regions _ _ _ W2 A2) as (? & ? & ? & _ & _ & _ & _ & _ & _ & _ & _ & F2 & O2).
  unfold in_window, fmmu_addr, EtherCat_fmmu_stride, SterilePacket_logical_addr_inc in *. lia.
Qed.
Print Assumptions C18_windows_disjoint.

(* a group too large for one frame is rejected: acceptance implies the size
   bound (C18_regions), and each refused append is refused for size/count only *)
Theorem C18_too_large_rejected : forall p d, append p d = None <->
  (p_size p + zlen (d_data d) + Packet_DATAGRAM_HEADER + Packet_DATAGRAM_TAIL > Packet_MAXSIZE \/
   zlen (p_data p) > Packet_append_maxcount).
Proof. exact Frame_proofs.append_rejects. Qed.

Example C18_nonvacuous :
  let t1 := {| t_kind := KFmmu; t_in := 4; t_out := 2; t_rw := true; t_pos := 1001; t_inoff := 4480; t_outoff := 4352 |} in
  let t2 := {| t_kind := KDirect; t_in := 6; t_out := 6; t_rw := true; t_pos := 1003; t_inoff := 4480; t_outoff := 4352 |} in
  let t3 := {| t_kind := KAero 8 12; t_in := 20; t_out := 30; t_rw := true; t_pos := 1004; t_inoff := 4480; t_outoff := 4352 |} in
  option_map r_assign (allocate [t1; t2; t3] (fmmu_addr 1)) =
    Some [(Some (112, Some 4096), Some (136, Some 6144));
          (Some (26, None), Some (44, None));
          (Some (116, Some 4100), Some (75, None))]
  /\ Forall wf_term [t1; t2; t3].
Proof. split; [vm_compute; reflexivity|]. repeat constructor; cbn; lia. Qed.
