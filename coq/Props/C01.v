(* C01 Integer DSL expressions compute the exact value.
   Model: Gen/Denote.v `impl` - the value the generated code leaves in the
   result register as a function of the operand values (width and sign
   propagation of Expression.calculate and its overrides), validated on every
   run against the REAL generated bytecode executed in the ISA model Ebpf/Isa.v
   (which is itself compared with the running kernel).
   `exact` is the mathematical meaning the property asks for. *)
From Verif Require Import Gen.Denote Gen.Denote_proofs.

(* For EVERY expression tree (any depth) over constants, r/sr/w/sw registers and
   signed/unsigned variables of 1, 2, 4 or 8 bytes, with + - * // % & | ^ << >>,
   unary minus and abs, and EVERY operand value: under `ok` - operands well
   formed; the operands of // % >> abs fit the width the operation is computed
   at, shift amounts below it, divisors non-zero - the n-byte destination
   receives the exact mathematical value reduced to n bytes.
   `ok` additionally excludes the three recorded defects (see the _refuted
   theorems below): operands of // and % must be non-negative, the upper half
   of a w/sw register must be zero, abs of an unsigned value needs a 64-bit
   computation below 2^63. *)
Theorem C01_exact : forall e n, In n [1; 2; 4; 8]%nat -> ok e (Some (Nat.eqb n 8)) ->
  stored e n = exact e mod 256 ^ Z.of_nat n.
Proof. exact stored_exact. Qed.
Print Assumptions C01_exact.

(* the invariant behind it: at every node the register value is congruent to
   the exact value modulo the width the node is computed at *)
Theorem C01_invariant : forall e req, ok e req -> Inv e req.
Proof. exact impl_inv. Qed.
Print Assumptions C01_invariant.

(* the full statement is FALSE of the faithful model (recorded findings): *)
(* signed division is emitted as unsigned DIV: I = b // -13 with b = -94 *)
Theorem C01_refuted_signed_div :
  exists e n, stored e n <> exact e mod 256 ^ Z.of_nat n /\
              e = EBin ODiv (EVar 162 1 true) (EConst (-13)) /\ n = 4%nat.
Proof. eexists _, _. split; [|split; reflexivity]. vm_compute. discriminate. Qed.

(* a w register is consumed with its full 64-bit content: q = w5 + 0 *)
Theorem C01_refuted_wreg_upper_bits :
  exists e n, stored e n <> exact e mod 256 ^ Z.of_nat n /\
              e = EBin OAdd (EReg 10167503465568496440 false false) (EConst 0) /\ n = 8%nat.
Proof. eexists _, _. split; [|split; reflexivity]. vm_compute. discriminate. Qed.

(* abs of an unsigned 64-bit value with bit 63 set negates it *)
Theorem C01_refuted_abs_unsigned :
  exists e n, stored e n <> exact e mod 256 ^ Z.of_nat n /\
              e = EAbs (EVar 18446744073709551615 8 false) /\ n = 8%nat.
Proof. eexists _, _. split; [|split; reflexivity]. vm_compute. discriminate. Qed.

(* non-vacuity: a mixed-width, mixed-sign tree of depth 3 satisfies `ok` *)
Example C01_nonvacuous :
  let e := EBin OAdd (EBin OMul (EVar 253 1 true) (EVar 70000 4 false))
                     (ENeg (EBin ORsh (EVar 65000 2 false) (EConst 3))) in
  ok e (Some true) /\ stored e 8 = (-3 * 70000 - 8125) mod 256 ^ 8.
Proof.
  split; [vm_compute; intuition discriminate|reflexivity].
Qed.
