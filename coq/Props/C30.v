(* C30 Slow sync groups exchange process data and check working counters.
   Model: Ecat/Cycle.v (SyncGroup.update_devices as used by SyncGroupBase.run);
   the devices are an arbitrary function from the data they see to byte writes. *)
From Verif Require Import Ecat.Cycle Ecat.Cycle_proofs.

(* what the devices see in update(): the latest response, byte for byte,
   except that every working counter (both bytes) reads zero *)
Theorem C30_inputs_before_update : forall cs resp dev m, (m < length resp)%nat ->
  let '(_, seen, _) := update_devices cs resp dev in
  nth m seen 0 = if is_counter_byte cs m then 0 else nth m resp 0.
Proof.
  (* the bound on m is not used: clear_counters_nth holds for every m *)
  intros cs resp dev m _. cbn. apply clear_counters_nth.
Qed.
Print Assumptions C30_inputs_before_update.

(* the next frame is what the devices saw plus exactly their writes; bytes they
   do not write (in particular the cleared counters) go out unchanged *)
Theorem C30_outputs_next_frame : forall cs resp dev m,
  let '(_, seen, nxt) := update_devices cs resp dev in
  nxt = apply_patches (dev seen) seen /\
  ((forall p, In p (dev seen) -> fst p <> m) -> nth m nxt 0 = nth m seen 0).
Proof. intros cs resp dev m. cbn. split; [reflexivity|]. apply apply_patches_untouched. Qed.
Print Assumptions C30_outputs_next_frame.

Theorem C30_wkc_cleared : forall cs resp dev m, (m < length resp)%nat -> is_counter_byte cs m = true ->
  let '(_, seen, nxt) := update_devices cs resp dev in
  (forall p, In p (dev seen) -> fst p <> m) -> nth m nxt 0 = 0.
Proof.
  (* the bound on m is not used, as in C30_inputs_before_update *)
  intros cs resp dev m _ C. cbn. intros U.
  now rewrite apply_patches_untouched, clear_counters_nth, C by exact U.
Qed.
Print Assumptions C30_wkc_cleared.

(* one error per datagram whose returned 16-bit working counter differs from
   the expected count, none otherwise *)
Theorem C30_error_iff_mismatch : forall cs resp,
  (count_errors cs resp = 0 <-> Forall (fun c => word_at resp (fst c) = snd c) cs) /\
  forall c, count_errors (c :: cs) resp =
            (if word_at resp (fst c) =? snd c then 0 else 1) + count_errors cs resp.
Proof. intros. split; [apply count_errors_zero_iff|intros; apply count_errors_step]. Qed.
Print Assumptions C30_error_iff_mismatch.

Example C30_nonvacuous :
  update_devices [(3%nat, 1)] [7; 8; 9; 1; 1; 5] (fun seen => [(0%nat, nth 5 seen 0)]) = (1, [7; 8; 9; 0; 0; 5], [5; 8; 9; 0; 0; 5]).
Proof. vm_compute. reflexivity. Qed.
