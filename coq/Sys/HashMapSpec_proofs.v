From Verif Require Import Sys.HashMapSpec.

Lemma bytes_eqb_eq : forall a b, bytes_eqb a b = true <-> a = b.
Proof.
  induction a as [|x a IH]; intros [|y b]; cbn [bytes_eqb]; try easy.
  rewrite andb_true_iff, Z.eqb_eq, IH. split; [intros [-> ->]; reflexivity|intros [= -> ->]; auto].
Qed.
Lemma bytes_eqb_refl a : bytes_eqb a a = true.
Proof. now apply bytes_eqb_eq. Qed.
Lemma bytes_eqb_sym a b : bytes_eqb a b = bytes_eqb b a.
Proof. apply eq_true_iff_eq. rewrite !bytes_eqb_eq. split; auto. Qed.

Section Laws.
Context {A : Type}.
Implicit Types t : @table A.

(* after an update the key holds the new value, and every other key is an independent cell *)
Lemma lookup_update k k' v t : t_lookup k' (t_update k v t) = if bytes_eqb k' k then Some v else t_lookup k' t.
Proof.
  induction t as [|[k0 v0] tl IH]; cbn [t_update t_lookup]; [reflexivity|].
  destruct (bytes_eqb k k0) eqn:E; cbn [t_lookup].
  - apply bytes_eqb_eq in E as <-. now destruct (bytes_eqb k' k).
  - rewrite IH. destruct (bytes_eqb k' k0) eqn:E'; [|reflexivity].
    apply bytes_eqb_eq in E' as ->. now rewrite bytes_eqb_sym, E.
Qed.

Lemma lookup_delete k k' t : t_lookup k' (t_delete k t) = if bytes_eqb k' k then None else t_lookup k' t.
Proof.
  induction t as [|[k0 v0] tl IH]; cbn [t_delete t_lookup]; [now destruct (bytes_eqb k' k)|].
  destruct (bytes_eqb k k0) eqn:E; cbn [t_lookup]; rewrite IH.
  - apply bytes_eqb_eq in E as <-. now destruct (bytes_eqb k' k).
  - destruct (bytes_eqb k' k0) eqn:E'; [|reflexivity].
    apply bytes_eqb_eq in E' as ->. now rewrite bytes_eqb_sym, E.
Qed.
End Laws.
