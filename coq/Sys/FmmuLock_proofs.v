From Verif Require Import Lib.ListX Sys.FmmuLock.

(* no window number is held twice; every held number is marked in the map and lies in 1..511 *)
Definition finv (s : fstate) : Prop :=
  NoDup (map snd (held s)) /\ (forall p a, In (p, a) (held s) -> zmem a (used s) = true /\ 0 < a < 512).

Lemma zmem_in x l : zmem x l = true <-> In x l.
Proof. apply existsb_Zeqb. Qed.

Theorem fstep_inv s e : finv s -> finv (fstep s e).
Proof.
  intros I. pose proof I as [N U]. destruct e as [p a|p]; cbn [fstep].
  - destruct (zmem a (used s)) eqn:M; [exact I|].
    destruct (Z.leb_spec a 0); [exact I|]. destruct (Z.leb_spec 512 a); [exact I|].
    split; cbn [held used map snd].
    + constructor; [|exact N]. intros ([q b] & E & Hq)%in_map_iff. cbn in E. subst b.
      destruct (U _ _ Hq) as [Hm _]. congruence.
    + intros q b [[= <- <-]|Hq].
      * split; [|lia]. apply zmem_in. now left.
      * destruct (U _ _ Hq) as [Hm Hr]. split; [|exact Hr]. apply zmem_in. right. apply zmem_in, Hm.
  - destruct (find (fun h => fst h =? p) (held s)) as [[q a]|] eqn:F; [|exact I].
    apply find_some in F as [Fin Fq]. cbn in Fq. apply Z.eqb_eq in Fq. subst q.
    split; cbn [held used].
    + apply NoDup_map_filter, N.
    + intros q b [Hin Hq]%filter_In. destruct (U _ _ Hin) as [Hm Hr]. split; [|exact Hr].
      apply zmem_in, filter_In. split; [apply zmem_in, Hm|]. apply negb_true_iff, Z.eqb_neq. intros ->.
      (* q and p both hold a: they are the same process, which the filter has removed *)
      assert (E : (q, a) = (p, a)) by now apply (NoDup_map_inj snd (held s)).
      injection E as ->. cbn in Hq. now rewrite Z.eqb_refl in Hq.
Qed.
