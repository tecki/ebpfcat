From Verif Require Import Lib.ListX Lib.Bits Sys.FmmuLock_proofs Sys.FmmuBytes.

Lemma upd_set_at (m : bmap) k v : (k < length m)%nat -> upd m k v = set_at k v m.
Proof. intros H. symmetry. now apply set_at_split. Qed.

Lemma split_eq a j : 0 <= a -> 0 <= j -> (a / 8 = j / 8 /\ a mod 8 = j mod 8) <-> a = j.
Proof. lia. Qed.

(* Both writes of lock.py replace the byte of number a by a function f of it that rewrites one bit: bit a mod 8 becomes
   `op old true`, every other bit stays (`op old false = old`); for b | (1 << k) op is orb, for b & ~(1 << k) it is
   (fun x y => x && negb y). *)
Section OneBit.
  Variables (f : Z -> Z) (op : bool -> bool -> bool) (a : Z).
  Hypothesis Ha : 0 <= a < 512.
  Hypothesis Hf : forall b i, 0 <= i -> Z.testbit (f b) i = op (Z.testbit b i) (i =? a mod 8).
  Hypothesis Hop : forall x, op x false = x.

  (* in the map it is the bit of number a that is rewritten, and no other *)
  Lemma testb_upd m j : length m = 64%nat -> 0 <= j < 512 ->
    testb (upd m (Z.to_nat (a / 8)) (f (byte_of m a))) j = op (testb m j) (j =? a).
  Proof.
    intros Hl Hj. unfold testb, byte_of. rewrite upd_set_at by lia.
    destruct (Z.eq_dec (j / 8) (a / 8)) as [E|E].
    - (* in the byte of a, the same bit means the same number *)
      rewrite E, nth_set_at_same, Hf by lia. f_equal. apply eq_true_iff_eq.
      rewrite !Z.eqb_eq, <- (split_eq j a) by lia. tauto.
    - rewrite nth_set_at_other by lia. replace (j =? a) with false by (symmetry; apply Z.eqb_neq; congruence).
      now rewrite Hop.
  Qed.

  (* what is written is a byte again: f sets no bit from 8 up *)
  Lemma upd_ok m : bytes_ok m -> bytes_ok (upd m (Z.to_nat (a / 8)) (f (byte_of m a))).
  Proof.
    intros [Hl Hb]. rewrite upd_set_at by lia. split; [now rewrite set_at_length|]. apply Forall_set_at; [|exact Hb].
    assert (Hx : 0 <= byte_of m a < 2 ^ 8) by (apply (proj1 (Forall_nth _ _) Hb); lia).
    rewrite below_pow2_bits in Hx by lia. apply (below_pow2_bits _ 8); [lia|].
    intros i Hi. rewrite Hf, Hx by lia. replace (i =? a mod 8) with false by lia. apply Hop.
  Qed.
End OneBit.

(* the two instances of the hypothesis Hf of Section OneBit *)
Lemma set_bit_op a b i : 0 <= i -> Z.testbit (Z.lor b (Z.shiftl 1 (a mod 8))) i = Z.testbit b i || (i =? a mod 8).
Proof. intros _. apply set_bit_bits. lia. Qed.

Lemma clear_bit_op a b i : 0 <= i ->
  Z.testbit (Z.land b (Z.lnot (Z.shiftl 1 (a mod 8)))) i = Z.testbit b i && negb (i =? a mod 8).
Proof. intros Hi. apply clear_bit_bits; lia. Qed.

(* removal clears the bit of number a and NO other bit of the map *)
Theorem clear_bit_spec m a j : length m = 64%nat -> 0 <= a < 512 -> 0 <= j < 512 ->
  testb (clear_bit m a) j = testb m j && negb (j =? a).
Proof. intros Hl Ha Hj. exact (testb_upd _ (fun x y => x && negb y) a Ha (clear_bit_op a) andb_true_r m j Hl Hj). Qed.

(* allocation sets the bit of number a and no other *)
Theorem set_bit_spec m a j : length m = 64%nat -> 0 <= a < 512 -> 0 <= j < 512 ->
  testb (set_bit m a) j = testb m j || (j =? a).
Proof. intros Hl Ha Hj. exact (testb_upd _ orb a Ha (set_bit_op a) orb_false_r m j Hl Hj). Qed.

Lemma set_bit_ok m a : bytes_ok m -> 0 <= a < 512 -> bytes_ok (set_bit m a).
Proof.
  intros Hm Ha. exact (upd_ok _ orb a Ha (set_bit_op a) orb_false_r m Hm).
Qed.

Lemma clear_bit_ok m a : bytes_ok m -> 0 <= a < 512 -> bytes_ok (clear_bit m a).
Proof.
  intros Hm Ha. exact (upd_ok _ (fun x y => x && negb y) a Ha (clear_bit_op a) andb_true_r m Hm).
Qed.

(* refinement: the bytes of the file say what the abstract state of FmmuLock.v says, after every event *)

Definition refines (mh : bmap * list (Z * Z)) (s : fstate) : Prop :=
  bytes_ok (fst mh) /\ held_ok (snd mh) /\ snd mh = held s /\ Rmap (fst mh) (used s).

Lemma Rmap_testb m u a : Rmap m u -> 0 <= a < 512 -> testb m a = zmem a u.
Proof. intros HR Ha. apply eq_true_iff_eq. rewrite zmem_in. now apply HR. Qed.

Theorem bstep_refines mh s e : refines mh s -> refines (bstep mh e) (fstep s e).
Proof.
  destruct mh as [m h]. intros I. pose proof I as (Hb & Hh & E & HR). cbn [fst snd] in *. subst h.
  destruct e as [p a|p]; cbn [bstep fstep].
  - (* allocation: the bytes refuse a number exactly when the abstract state does *)
    assert (G : testb m a || (a <=? 0) || (512 <=? a) = zmem a (used s) || (a <=? 0) || (512 <=? a)).
    { destruct (Z.leb_spec a 0); [now rewrite !orb_true_r|]. destruct (Z.leb_spec 512 a); [now rewrite !orb_true_r|].
      now rewrite (Rmap_testb m (used s) a HR) by lia. }
    rewrite G. destruct (zmem a (used s) || (a <=? 0) || (512 <=? a)) eqn:D; [exact I|].
    assert (Ha : 0 < a < 512) by lia.
    split; [|split; [|split]]; cbn [fst snd used held].
    + apply set_bit_ok; [exact Hb|lia].
    + constructor; [exact Ha|exact Hh].
    + reflexivity.
    + intros j Hj. destruct Hb as [Hl _]. rewrite set_bit_spec by lia.
      rewrite orb_true_iff, Z.eqb_eq, (HR j Hj). cbn [In]. intuition.
  - (* removal *)
    destruct (find (fun x => fst x =? p) (held s)) as [[q a]|] eqn:F; [|exact I].
    assert (Ha : 0 < a < 512).
    { apply find_some in F as [Hin _]. exact (proj1 (Forall_forall _ _) Hh _ Hin). }
    split; [|split; [|split]]; cbn [fst snd used held].
    + apply clear_bit_ok; [exact Hb|lia].
    + exact (incl_Forall (incl_filter _ _) Hh).
    + reflexivity.
    + intros j Hj. destruct Hb as [Hl _]. rewrite clear_bit_spec by lia.
      now rewrite andb_true_iff, filter_In, negb_true_iff, (HR j Hj).
Qed.

(* the empty map file, where C23_map_bytes_refine starts.  TRAP: the name shadows Lib.Bytes.zeros (nat -> list Z), which
   comes in through Lib.ListX: a file that imports both gets the `zeros` of whichever it imports last. *)
Definition zeros : bmap := repeat 0 64.

Lemma refines_start : refines (zeros, []) {| used := []; held := [] |}.
Proof.
  split; [|split; [constructor|split; [reflexivity|]]].
  - split; [reflexivity|]. apply Forall_forall. intros x ->%repeat_spec. lia.
  - intros j _. unfold testb, byte_of, zeros. cbn [fst]. rewrite nth_repeat_any.
    now destruct (_ <? _)%nat; rewrite Z.testbit_0_l.
Qed.
