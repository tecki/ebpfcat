(* Safety of the start / stop protocol of Sys/StartStop.v for ANY number of participants, by an inductive
   invariant: the participants that currently own a lock file hold pairwise distinct ethertypes, and their
   files are in the lock directory.  A participant can become the first (and install the dispatcher) only over
   an absent or empty directory, that is when nobody owns a file; that gives p1.  Running participants are
   owners; that gives p3.  (That every file has an owner is not needed: a file without one can only keep a
   participant from becoming the first.)
   The other two clauses of SInv close a circle.  i_first is p1 itself, stated as uniq.  i_pin: nothing is pinned
   while the first is at FAttach or FPin, so FPin never goes to FUndo - whose rmtree would take the joiners' files
   out of the directory (i_files); and nothing gets pinned meanwhile because only the installer pins, and i_first
   says it is alone.  So the invariant also shows that the FUndo branch of the model is unreachable. *)
From Verif Require Import Sys.StartStop.

(* a participant owns a lock file (named after its ethertype) from the step that creates the file to the
   step that removes it *)
Definition own (p : proc) : option Z :=
  match p_pc p with
  | FRemove | FAttach | FPin | FUndo | JGet1 | JGet2 | JUndo | Running | TRemove => Some (p_eth p)
  | _ => None
  end.
Definition inst (p : proc) : option unit := if installing p then Some tt else None.
(* an absent directory counts as an empty one: Rename treats them alike, and TRmdir's step from Some [] to None
   moves no file *)
Definition files (ld : option (list Z)) : list Z := match ld with Some l => l | None => [] end.
Definition pin_ok (pn : option Z) (c : pc) : Prop :=
  match c with FUndo => False | FAttach | FPin => pn = None | _ => True end.

(* The participants enter through partial functions of their index (view own: j |-> the file that j owns; view inst:
   j |-> tt if j installs); uniq, view and handover are those of Lib/ListX. *)
Record SInv (s : st) : Prop := {
  i_files : forall j e, view own (procs s) j = Some e -> In e (files (lockdir s));
  i_uniq : uniq (view own (procs s));
  i_first : uniq (view inst (procs s));
  i_pin : forall j p, nth_error (procs s) j = Some p -> pin_ok (pin s) (p_pc p) }.

Lemma inst_owns l j : view inst l j = Some tt -> exists e, view own l j = Some e.
Proof. unfold view. destruct (nth_error l j) as [[[] e t]|]; cbn; try discriminate; eauto. Qed.

Lemma mem_in x l : mem x l = true <-> In x l.
Proof. apply existsb_Zeqb. Qed.

Lemma in_insert_z x e l : In x (insert_z e l) <-> x = e \/ In x l.
Proof. induction l as [|y l IH]; cbn; [intuition|]. destruct (e <=? y); cbn; rewrite ?IH; intuition. Qed.

Lemma in_remove_z x e l : In x (remove_z e l) <-> In x l /\ x <> e.
Proof. unfold remove_z. rewrite filter_In, negb_true_iff, Z.eqb_neq. tauto. Qed.

(* Participant k moves from p to p' and changes the shared objects: it hands a file over as its ownership says;
   it becomes the installer only over an empty directory; it does not enter FAttach or FPin with something
   pinned; and only the installer pins. *)
Lemma sinv_upd {s k p p' ld pn at_} : SInv s -> nth_error (procs s) k = Some p ->
  handover (fun e => In e (files (lockdir s))) (own p) (own p') (fun e => In e (files ld)) ->
  (inst p' = Some tt -> inst p = Some tt \/ files (lockdir s) = []) ->
  pin_ok pn (p_pc p') -> pn = pin s \/ pn = None \/ inst p = Some tt ->
  SInv (upd s k p' ld pn at_).
Proof.
  intros [IF IU I1 IP] Hk HO H1 HP HN.
  pose proof (fun A (v : proc -> option A) j => view_set_at v (procs s) k p p' j Hk) as V.
  pose proof (fun A (v : proc -> option A) => view_at v (procs s) k p Hk) as Vk.
  destruct (handover_owners _ _ _ _ k _ _ IF IU (Vk _ own) (V _ own) HO) as [IF' IU'].
  constructor; cbn [lockdir pin procs upd]; [exact IF'|exact IU'| |].
  - apply (uniq_upd _ _ k (inst p') I1 (V _ inst)). intros j [] [Hp|HF]%H1 Hj.
    + apply (I1 k j tt); [now rewrite Vk|exact Hj].
    + (* j owns a file, and there is none *)
      destruct (inst_owns _ j Hj) as [e E%IF]. now rewrite HF in E.
  - intros j q. rewrite (nth_error_set_at_in _ k p p' j Hk).
    destruct (Nat.eqb_spec k j) as [<-|N]; [now intros [= <-]|].
    intros Hq. pose proof (IP j q Hq) as Q. destruct HN as [->|[->|Hp]]; [exact Q|now destruct (p_pc q)|].
    (* k is the one installing participant: j is not at FAttach or FPin *)
    assert (Nq : inst q <> Some tt).
    { intros E. apply N, (I1 k j tt); [now rewrite Vk|now rewrite (view_at inst _ j q Hq)]. }
    destruct q as [[] e t]; try easy; now elim Nq.
Qed.

(* the common case: no file moves *)
Lemma sinv_keep {s k p p' ld pn at_} : SInv s -> nth_error (procs s) k = Some p ->
  own p' = own p -> files ld = files (lockdir s) -> (inst p' = Some tt -> inst p = Some tt) ->
  pin_ok pn (p_pc p') -> pn = pin s \/ pn = None \/ inst p = Some tt ->
  SInv (upd s k p' ld pn at_).
Proof. intros I Hk E EF H1 HP HN. apply (sinv_upd I Hk); auto. rewrite E, EF. constructor. Qed.

Lemma step_inv choices s k s' : SInv s -> In s' (step_proc choices s k) -> SInv s'.
Proof.
  intros I H. unfold step_proc in H. destruct (nth_error (procs s) k) as [[c e t]|] eqn:Hk; [|destruct H].
  cbn [p_pc p_eth p_table] in H.
  pose proof (i_pin s I k _ Hk) as Hpin. cbn [p_pc] in Hpin.
  (* the side conditions of sinv_keep and sinv_upd hold by computing; what remains is how a file moves *)
  destruct c; cbn [pin_ok] in Hpin.
  - (* Idle *)
    destruct H as [<-|[]]. apply (sinv_keep I Hk); now auto.
  - (* Rename: over no directory or an empty one the participant becomes the first; its own file is the only one *)
    destruct (lockdir s) as [[|f fs]|] eqn:L; destruct H as [<-|[]]; [|apply (sinv_keep I Hk); now auto|].
    all: apply (sinv_upd I Hk); rewrite ?L; try now auto.
    all: apply HTake; cbn; intuition.
  - (* JOpen: a name that is taken is drawn again, a free one becomes the participant's file *)
    destruct (lockdir s) as [l|] eqn:L; [destruct (mem e l) eqn:M|].
    + apply in_map_iff in H as (c & <- & _). apply (sinv_keep I Hk); now auto.
    + destruct H as [<-|[]]. apply (sinv_upd I Hk); rewrite ?L; try now auto.
      apply HTake; [|intros x; apply in_insert_z]. rewrite <- (mem_in e l). congruence.
    + destruct H as [<-|[]]. apply (sinv_keep I Hk); now auto.
  - (* JGet1 *)
    destruct (pin s); destruct H as [<-|[]]; apply (sinv_keep I Hk); now auto.
  - (* JGet2 *)
    destruct (pin s); destruct H as [<-|[]]; apply (sinv_keep I Hk); now auto.
  - (* JUndo: the joiner gives its file up *)
    destruct H as [<-|[]]. apply (sinv_upd I Hk); try now auto. apply HDrop.
    destruct (lockdir s); [|easy]. intros x Hx Ne. now apply in_remove_z.
  - (* FRemove *)
    destruct H as [<-|[]]. apply (sinv_keep I Hk); now auto.
  - (* FAttach *)
    destruct H as [<-|[]]. apply (sinv_keep I Hk); now auto.
  - (* FPin: nothing is pinned, so the pinning succeeds *)
    rewrite Hpin in H. destruct H as [<-|[]]. apply (sinv_keep I Hk); now auto.
  - (* FUndo: i_pin says that nobody is here; its step would empty the directory under the other owners *)
    destruct Hpin.
  - (* Running *)
    destruct H as [<-|[]]. apply (sinv_keep I Hk); now auto.
  - (* TRemove: the participant gives its file up, whether or not it finds it *)
    destruct (lockdir s) as [l|] eqn:L; [destruct (mem e l)|]; destruct H as [<-|[]].
    all: apply (sinv_upd I Hk); rewrite ?L; try now auto.
    all: apply HDrop; auto. intros x Hx Ne. now apply in_remove_z.
  - (* TRmdir: removing the empty directory keeps `files` as it is *)
    destruct (lockdir s) as [[|f fs]|] eqn:L; destruct H as [<-|[]]; apply (sinv_keep I Hk); rewrite ?L; now auto.
  - (* TDetach *)
    destruct H as [<-|[]]. apply (sinv_keep I Hk); now auto.
  - (* TUnpin *)
    destruct (pin s); destruct H as [<-|[]]; apply (sinv_keep I Hk); now auto.
  - (* Done *)
    destruct H.
  - (* Aborted *)
    destruct H.
Qed.

Lemma sinv_init n : SInv (init n).
Proof.
  assert (P : forall j p, nth_error (procs (init n)) j = Some p -> p = mk Idle E0 (-1)).
  { intros j p H. apply nth_error_In in H. now apply repeat_spec in H. }
  assert (V : forall A (v : proc -> option A) j, v (mk Idle E0 (-1)) = None -> view v (procs (init n)) j = None).
  { intros A v j Hv. unfold view. destruct (nth_error _ j) as [p|] eqn:E; [|reflexivity]. now rewrite (P j p E). }
  constructor.
  - intros j e. now rewrite V.
  - intros j1 j2 e. now rewrite V.
  - intros j1 j2 e. now rewrite V.
  - now intros j p ->%P.
Qed.

Lemma run_inv choices sched : forall s, SInv s -> SInv (run_sched choices s sched).
Proof.
  induction sched as [|[k c] tl IH]; intros s I; cbn [run_sched]; [exact I|].
  destruct (nth_error (step_proc choices s k) c) eqn:E; apply IH; [|exact I].
  eapply step_inv; eauto using nth_error_In.
Qed.

Lemma NoDup_distinct l : NoDup l -> distinct l = true.
Proof.
  induction 1 as [|x l N _ IH]; cbn; [reflexivity|]. rewrite IH, andb_true_r. apply negb_true_iff.
  destruct (mem x l) eqn:M; [|reflexivity]. now apply mem_in in M.
Qed.

(* For ANY number of participants, ANY set of ethertypes the draws may give, every interleaving of the
   participants' steps and every outcome of the draws: at most one participant installs the dispatcher at a
   time, and running participants have distinct ethertypes. *)
Theorem start_stop_safe choices n sched :
  let s := run_sched choices (init n) sched in p1 s = true /\ p3 s = true.
Proof.
  intros s. assert (I : SInv s) by apply run_inv, sinv_init. split.
  - unfold p1. apply Nat.leb_le. rewrite <- (map_length (fun _ => tt)).
    apply (NoDup_incl_length (l' := [tt])); [exact (uniq_filter installing (fun _ => tt) _ (i_first s I))|].
    now intros [] _; left.
  - unfold p3. apply NoDup_distinct, uniq_filter.
    assert (R : forall j e, view (fun p => if running p then Some (p_eth p) else None) (procs s) j = Some e ->
                            view own (procs s) j = Some e).
    { intros j e. unfold view. now destruct (nth_error (procs s) j) as [[[] e' t]|]. }
    intros j1 j2 e H1%R H2%R. exact (i_uniq s I j1 j2 e H1 H2).
Qed.

(* the dispatcher does NOT stay installed: a leaver that found the lock directory empty still detaches and removes the
   pin after a fresh starter has installed its own (recorded finding) *)
Definition race : list (nat * nat) :=
  [(0, 0); (0, 0); (0, 0); (0, 0); (0, 0);          (* participant 0 starts: rename, remove old pin, attach, pin -> running *)
   (0, 0); (0, 0); (0, 0);                           (* 0 leaves: removes its lock file, rmdir succeeds (it was the last) *)
   (1, 0); (1, 0); (1, 0); (1, 0); (1, 0);           (* participant 1 starts meanwhile and becomes first: attaches, pins -> running *)
   (0, 0); (0, 0)]%nat.                              (* 0 finishes leaving: detaches the dispatcher and removes the pin *)
