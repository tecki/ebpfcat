From Verif Require Import Sys.MapBuf.

Lemma round8_idem n : round8 (round8 n) = round8 n.
Proof. unfold round8. lia. Qed.
