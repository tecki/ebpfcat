From Verif Require Import Sys.Cancel.

Definition op_requested (t : nat) (l : list ev) : Prop := In (AlWrite t 8) l.

(* a property of control points that every accepted event keeps and that the event e0 brings about holds after
   every accepted sequence that starts where it holds or contains e0 *)
Lemma track_after c (P : ctl -> Prop) e0 :
  (forall s e s', advance c s e = Some s' -> P s \/ e = e0 -> P s') ->
  forall pre s s', track c s pre = Some s' -> P s \/ In e0 pre -> P s'.
Proof.
  intros Step. induction pre as [|e tl IH]; intros s s' T H; cbn [track In] in *.
  - injection T as <-. tauto.
  - destruct (advance c s e) as [s1|] eqn:A; [|discriminate]. apply (IH s1 s' T).
    pose proof (Step s e s1 A). tauto.
Qed.

(* the program-table entry, once written, stays *)
Lemma advance_registered c s e s' : advance c s e = Some s' -> registered s = true \/ e = Reg -> registered s' = true.
Proof.
  unfold advance. intros A H. destruct (phase s) as [|[|[|n]]].
  - (* priming: both accepted events leave the entry written *)
    destruct e; try discriminate A.
    + (* Frame *) destruct (registered s); [|discriminate A]. injection A as <-. reflexivity.
    + (* Reg *) destruct (registered s); [discriminate A|]. injection A as <-. reflexivity.
  - (* mapping: the flag is copied, Reg is refused *)
    destruct H as [R| ->]; [|discriminate A].
    destruct e as [t k|t v| | |]; try discriminate A.
    + (* FmmuSet *) injection A as <-. exact R.
    + (* AlWrite *) destruct (v =? 8); [discriminate A|]. injection A as <-. exact R.
    + (* Frame *) injection A as <-. exact R.
  - (* cyclic operation: the state stays as it is, Reg is refused *)
    destruct H as [R| ->]; [|discriminate A].
    destruct e; try discriminate A.
    + (* AlWrite *) destruct (_ && _); [|discriminate A]. injection A as <-. exact R.
    + (* Frame *) injection A as <-. exact R.
  - destruct e; discriminate A.
Qed.

(* an OPERATIONAL request is accepted only inside the try (phase 2) and for a terminal the group writes; phase 2 is not
   left *)
Lemma advance_operational c t s e s' : advance c s e = Some s' ->
  (phase s = 2%nat /\ is_rw c t = true) \/ e = AlWrite t 8 -> phase s' = 2%nat /\ is_rw c t = true.
Proof.
  unfold advance. intros A [[P R]| ->].
  - (* inside the try: both accepted events leave the state as it is *)
    rewrite P in A. destruct e; try discriminate A.
    + (* AlWrite *) destruct (_ && _); [|discriminate A]. injection A as <-. auto.
    + (* Frame *) injection A as <-. auto.
  - (* the request itself: refused while priming and mapping *)
    destruct (phase s) as [|[|[|n]]] eqn:P; try discriminate A. cbn in A.
    destruct (is_rw c t); [|discriminate A]. injection A as <-. auto.
Qed.

Lemma safeops_all c t : is_rw c t = true -> In (AlWrite t 4) (safeops c).
Proof.
  intros H. unfold safeops. apply in_flat_map. exists t. split.
  - apply in_seq. unfold is_rw in H.
    destruct (Nat.ltb_spec t (length (rw c))); [lia|]. rewrite nth_overflow in H by lia. discriminate.
  - rewrite H. now left.
Qed.
