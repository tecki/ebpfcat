From Verif Require Import Sys.MbxLock.

(* chain and bracketed run over a list from its head, carrying a state (the previous counter / the current holder);
   the logs grow at their END.  So the invariants do not say `check start log = true` - which cannot be extended by
   one entry without knowing the state the check is in - but say which state that is: `check start (log ++ l') =
   check now l'` for every continuation l'.  An event that appends m moves `now` by running the check over m
   (rewrite <- app_assoc, compute); l' = [] gives `check start log = true`. *)

(* the counters l are a chain from the start, and lastc is the last of them *)
Definition chained (l : list Z) (lastc : option Z) : Prop := forall l', chain None (l ++ l') = chain lastc l'.
(* the counter that the next message gets *)
Definition nextv (lastc : option Z) : Z := match lastc with None => 0 | Some c => next_counter c end.

Lemma chained_chain l lastc : chained l lastc -> chain None l = true.
Proof. intros H. rewrite <- (app_nil_r l). apply H. Qed.

Lemma chained_snoc l lastc : chained l lastc -> chained (l ++ [nextv lastc]) (Some (nextv lastc)).
Proof.
  intros H l'. rewrite <- app_assoc, H. cbn [app chain].
  destruct lastc; cbn [nextv]; now rewrite Z.eqb_refl.
Qed.

Record AInv (s : ast) : Prop := {
  a_brk : forall l', bracketed None (log s ++ l') = bracketed (holder s) l';
  a_chn : exists lastc, chained (sent_counters (log s)) lastc /\ counter s = nextv lastc }.

Lemma ainv0 : AInv ast0.
Proof. split; [reflexivity|]. now exists None. Qed.

Lemma astep_inv s e : AInv s -> AInv (astep s e).
Proof.
  intros I. pose proof I as [B C].
  (* what the log gains without a Sent leaves the counters sent as they are *)
  assert (Q : forall m, sent_counters m = [] -> sent_counters (log s ++ m) = sent_counters (log s)).
  { intros m Hm. unfold sent_counters in Hm |- *. now rewrite flat_map_app, Hm, app_nil_r. }
  destruct e as [u|u|u]; cbn [astep]; destruct (holder s) as [h|] eqn:H; try exact I.
  - (* Acquire, the lock is taken: u queues up *)
    split; assumption.
  - (* Acquire, the lock is free *)
    split; cbn [log holder counter]; [|now rewrite Q].
    intros l'. now rewrite <- app_assoc, B.
  - (* Send *)
    destruct (Nat.eqb_spec h u) as [->|]; [|exact I]. split; cbn [log holder counter].
    + intros l'. rewrite <- app_assoc, B. cbn [app bracketed]. now rewrite Nat.eqb_refl.
    + destruct C as (lastc & C & N). exists (Some (counter s)).
      unfold sent_counters. rewrite flat_map_app. cbn [flat_map app].
      rewrite N. split; [apply chained_snoc, C|reflexivity].
  - (* Release *)
    destruct (Nat.eqb_spec h u) as [->|]; [|exact I].
    destruct (waiters s) as [|w tl]; (split; cbn [log holder counter]; [|now rewrite Q]).
    all: intros l'; rewrite <- app_assoc, B; cbn [app bracketed]; now rewrite Nat.eqb_refl.
Qed.

Lemma a_reachable evs : AInv (fold_left astep evs ast0).
Proof. apply fold_left_inv; [exact astep_inv|exact ainv0]. Qed.

(* the counter as a process in local state x finds it: its own copy once it has read the file, else the file's byte
   (0 while the file is empty) *)
Definition seen (f : option Z) (x : plocal) : Z :=
  match x with PHave c => c | _ => match f with Some c => c | None => 0 end end.
(* ... and as the holder of the lock finds it, or whoever takes the lock while it is free *)
Definition cur (s : bst) : Z := seen (file s) (match flock s with Some h => pget s h | None => PIdle end).

Record BInv (s : bst) : Prop := {
  b_excl : forall q, pget s q <> PIdle -> flock s = Some q;
  b_chn : exists lastc, chained (map snd (btrace s)) lastc /\ cur s = nextv lastc }.

Lemma pget_set s p v q file' flock' btrace' : (p < length (procs s))%nat ->
  pget {| file := file'; flock := flock'; procs := pset s p v; btrace := btrace' |} q = if Nat.eqb p q then v else pget s q.
Proof. apply nth_set_at_in. Qed.

Lemma pget_bound s p : pget s p <> PIdle -> (p < length (procs s))%nat.
Proof.
  intros H. destruct (Nat.ltb_spec p (length (procs s))); [assumption|].
  unfold pget in H. now rewrite nth_overflow in H.
Qed.

Lemma binv0 n : BInv (bst0 n).
Proof.
  split; [|now exists None]. intros q H. elim H. unfold pget, bst0. cbn [procs].
  rewrite nth_repeat_any. now destruct (q <? n)%nat.
Qed.

(* The one way the processes change: p, which the lock does not shut out, moves to the local state v, and holds the lock
   unless it goes idle and gives it up; file and trace may change with it. *)
Lemma binv_set s p v file' flock' btrace' lastc :
  BInv s -> flock s = None \/ pget s p <> PIdle -> (p < length (procs s))%nat ->
  flock' = Some p \/ flock' = None /\ v = PIdle -> chained (map snd btrace') lastc -> seen file' v = nextv lastc ->
  BInv {| file := file'; flock := flock'; procs := pset s p v; btrace := btrace' |}.
Proof.
  intros [X _] U Lp Hl C V. split; cbn [flock file btrace].
  - intros q. rewrite pget_set by exact Lp. destruct (Nat.eqb_spec p q) as [<-|N].
    + now destruct Hl as [Hl|[_ ->]].
    + (* a busy q would hold the lock, which is free or held by p *)
      intros Fq%X. destruct U as [F|Fp%X]; congruence.
  - exists lastc. split; [exact C|]. unfold cur. cbn [flock file]. destruct Hl as [->|[-> ->]]; [|exact V].
    now rewrite pget_set, Nat.eqb_refl.
Qed.

Lemma bstep_inv s e : BInv s -> BInv (bstep s e).
Proof.
  intros I. pose proof I as [X (lastc & C & V)]. unfold cur in V.
  (* how a busy process moves: it holds the lock, and sees nextv lastc *)
  assert (B : forall p v file' flock' btrace' lastc', pget s p <> PIdle ->
              flock' = flock s \/ flock' = None /\ v = PIdle ->
              (seen (file s) (pget s p) = nextv lastc ->
               chained (map snd btrace') lastc' /\ seen file' v = nextv lastc') ->
              BInv {| file := file'; flock := flock'; procs := pset s p v; btrace := btrace' |}).
  { intros p v file' flock' btrace' lastc' Hp Hl HV. rewrite (X p Hp) in V, Hl. destruct (HV V) as [C' V'].
    apply binv_set with lastc'; auto using pget_bound. }
  destruct e as [p|p|p|p|p|]; cbn [bstep].
  - (* lock *)
    destruct (flock s) eqn:F; [exact I|]. destruct (pget s p) eqn:Ep; try exact I.
    destruct (Nat.ltb_spec p (length (procs s))) as [Lp|]; [|exact I].
    apply binv_set with lastc; [exact I|now left|exact Lp|now left|exact C|exact V].
  - (* read *)
    destruct (pget s p) eqn:Ep; try exact I. apply (B p) with lastc; rewrite ?Ep; [easy|now left|auto].
  - (* send: the trace gains c, which is nextv lastc *)
    destruct (pget s p) eqn:Ep; try exact I. apply (B p) with (Some c); rewrite ?Ep; [easy|now left|].
    cbn [seen]. intros ->. split; [|reflexivity]. rewrite map_app. apply chained_snoc, C.
  - (* write *)
    destruct (pget s p) eqn:Ep; try exact I. apply (B p) with lastc; rewrite ?Ep; [easy|now left|auto].
  - (* unlock *)
    destruct (pget s p) eqn:Ep; try exact I. apply (B p) with lastc; rewrite ?Ep; [easy|now right|auto].
  - (* init by the creator: the byte it writes is the byte every reader found before *)
    split; [exact X|]. exists lastc. split; [exact C|]. rewrite <- V. unfold cur, pget. cbn [file flock procs].
    destruct (flock s) as [h|]; [destruct (nth h (procs s) PIdle)|]; now destruct (file s).
Qed.

Lemma b_reachable n evs : BInv (fold_left bstep evs (bst0 n)).
Proof. apply fold_left_inv; [exact bstep_inv|apply binv0]. Qed.
