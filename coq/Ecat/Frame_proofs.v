(* Packet.assemble followed by the parser gives the datagrams back (assemble_parse).
   The 16 bytes assemble packs in front ARE the length word followed by one encoded
   datagram (id_dgram), so a frame is length word ++ enc_dgrams (id_dgram :: data)
   ++ padding (assemble_inv), and everything after the length word is read by one
   induction over encoded datagrams: enc_dgram_shape gives the bytes of a datagram,
   parse_enc reads a list of them back, parse_frame_enc strips the length word.
   appends_inv supplies the size hypothesis of assemble_parse for packets that
   were built by append. *)
From Verif Require Import Lib.ListX Lib.Bits Lib.Struct_proofs Ecat.Frame.

(* the length word of a datagram: 11 bits of length, bit 15 = more datagrams follow *)
Definition lf_of (len : Z) (more : bool) : Z := Z.lor len (Z.shiftl (if more then 1 else 0) 15).

Lemma lenfield_decode len more : 0 <= len < 2048 ->
  lf_of len more mod 2048 = len /\ Z.testbit (lf_of len more) 15 = more.
Proof.
  intros H. unfold lf_of. rewrite lor_shiftl_add by lia. change (2 ^ 15) with 32768.
  destruct more; (split; [lia|]).
  - apply Z.testbit_true; [lia|]. change (2 ^ 15) with 32768. lia.
  - apply Z.testbit_false; [lia|]. change (2 ^ 15) with 32768. lia.
Qed.

(* the length word of the frame: 11 bits of length, type 1 in bits 12..15 *)
Lemma hdr_decode n : 0 <= n < 2048 ->
  let h := Z.lor n 4096 in 0 <= h < 65536 /\ h mod 2048 = n /\ h / 4096 = 1.
Proof.
  intros H h. replace h with (n + 4096) by (symmetry; apply (lor_shiftl_add n 1 12); lia). lia.
Qed.

Lemma u8_bytes z : in_range 1 false z = true -> le_bytes 1 z = [z].
Proof. unfold in_range. intros H. cbn [le_bytes]. f_equal. change (2 ^ (8 * Z.of_nat 1)) with 256 in H. lia. Qed.

Lemma u16_val z : in_range 2 false z = true -> le_val (le_bytes 2 z) = z.
Proof. unfold in_range. intros H. apply le_val_le_bytes_small. rewrite pow256. lia. Qed.

Lemma append_inv p d p' a b : append p d = Some (p', (a, b)) ->
  p_size p' = p_size p + zlen (d_data d) + 12 /\ p_data p' = p_data p ++ [d] /\
  a = p_size p + 10 /\ b = a + zlen (d_data d) /\ p_size p' <= Packet_MAXSIZE.
Proof.
  unfold append, Packet_DATAGRAM_HEADER, Packet_DATAGRAM_TAIL.
  destruct (Z.gtb_spec (p_size p + zlen (d_data d) + 10 + 2) Packet_MAXSIZE); [discriminate|].
  destruct (Z.gtb_spec (zlen (p_data p)) Packet_append_maxcount); [discriminate|].
  intros [= <- <- <-]. cbn [p_size p_data]. repeat split; lia.
Qed.

(* rejection is exactly the size / count overflow, and leaves the packet alone
   (append returns no new packet) *)
Lemma append_rejects p d : append p d = None <->
  (p_size p + zlen (d_data d) + Packet_DATAGRAM_HEADER + Packet_DATAGRAM_TAIL > Packet_MAXSIZE \/
   zlen (p_data p) > Packet_append_maxcount).
Proof.
  unfold append.
  destruct (Z.gtb_spec (p_size p + zlen (d_data d) + Packet_DATAGRAM_HEADER + Packet_DATAGRAM_TAIL) Packet_MAXSIZE);
  destruct (Z.gtb_spec (zlen (p_data p)) Packet_append_maxcount); split; intros; try discriminate; try lia; auto.
Qed.

Lemma s_append_inv (writer : bool) s d s' :
  (if writer then s_append_writer s d else s_append s d) = Some s' ->
  (exists pos, append (sp s) d = Some (sp s', pos)) /\
  on_the_fly s' = on_the_fly s ++ (if writer then [(p_size (sp s), p_size (sp s'), d_cmd d)] else []).
Proof.
  unfold s_append, s_append_writer. destruct (append (sp s) d) as [[p' pos]|]; [|now destruct writer].
  destruct writer; intros [= <-]; cbn [sp on_the_fly option_map fst]; rewrite ?app_nil_r; eauto.
Qed.

Fixpoint specs (pos : Z) (ds : list dgram) : list pdgram :=
  match ds with
  | [] => []
  | d :: tl =>
      {| s_cmd := d_cmd d; s_idx := d_idx d; s_addr := addr32 d; s_len := zlen (d_data d);
         s_more := match tl with [] => false | _ => true end; s_irq := 0;
         s_data := d_data d; s_wkc := d_wkc d; s_datapos := pos + 10 |}
      :: specs (pos + 12 + zlen (d_data d)) tl
  end.

(* bytes the datagrams take in a frame *)
Fixpoint dsize (ds : list dgram) : Z :=
  match ds with [] => 0 | d :: tl => 12 + zlen (d_data d) + dsize tl end.

Lemma dsize_nonneg ds : 0 <= dsize ds.
Proof. induction ds as [|d tl IH]; cbn [dsize]; [lia|]. pose proof (zlen_nonneg (d_data d)). lia. Qed.

Lemma splitn_app a b : splitn (length a) (a ++ b) = Some (a, b).
Proof.
  unfold splitn. rewrite app_length, firstn_app_exact, skipn_app_exact.
  destruct (Nat.ltb_spec (length a + length b) (length a)); [lia|reflexivity].
Qed.

(* the bytes of one datagram: the two address forms differ only in how the
   four address bytes come about *)
Lemma enc_dgram_shape more d e : enc_dgram more d = Some e ->
  exists a0 a1 a2 a3 l0 l1 w0 w1,
    e = d_cmd d :: d_idx d :: a0 :: a1 :: a2 :: a3 :: l0 :: l1 :: 0 :: 0 :: d_data d ++ [w0; w1] /\
    le_val [a0; a1; a2; a3] = addr32 d /\ le_val [l0; l1] = lf_of (zlen (d_data d)) more /\
    le_val [w0; w1] = d_wkc d.
Proof.
  unfold enc_dgram, addr32. fold (lf_of (zlen (d_data d)) more). intros H.
  destruct (d_addr d) as [|x [|y [|? ?]]]; try discriminate.
  all: destruct (pack _ _) as [h|] eqn:Ph in H; [|discriminate].
  all: destruct (pack [u16] _) as [w|] eqn:Pw in H; [|discriminate].
  (* pack_inv names the range facts R, R0, R1, ... in the order of the format's items (command, index, the one or two address
     items, length word, irq) and goes on counting in the second call (working counter) *)
  all: injection H as <-; unfold u8, u16, i16, i32 in *; pack_inv Ph; pack_inv Pw.
  all: rewrite (u8_bytes _ R), (u8_bytes _ R0); do 8 eexists; (split; [reflexivity|]).
  - (* logical addressing *)
    repeat split; [exact (le_val_le_bytes 4 x)|exact (u16_val _ R2)|exact (u16_val _ R4)].
  - (* position / node addressing *)
    repeat split; [|exact (u16_val _ R3)|exact (u16_val _ R5)].
    change (le_val (le_bytes 2 x ++ le_bytes 2 y) = x mod 65536 + 65536 * y).
    rewrite le_val_app, (u16_val _ R2), le_val_le_bytes. reflexivity.
Qed.

Lemma enc_dgram_length more d e : enc_dgram more d = Some e -> zlen e = 12 + zlen (d_data d).
Proof.
  intros (a0 & a1 & a2 & a3 & l0 & l1 & w0 & w1 & -> & _)%enc_dgram_shape.
  unfold zlen. cbn [length]. rewrite app_length. cbn [length]. lia.
Qed.

Lemma enc_dgrams_cons_inv d tl b : enc_dgrams (d :: tl) = Some b ->
  exists e r, enc_dgram (match tl with [] => false | _ => true end) d = Some e /\
    enc_dgrams tl = Some r /\ b = e ++ r.
Proof.
  cbn [enc_dgrams]. destruct (enc_dgram _ d) as [e|]; [|discriminate].
  destruct (enc_dgrams tl) as [r|]; [|discriminate]. intros [= <-]. eauto.
Qed.

Lemma enc_dgrams_length ds : forall b, enc_dgrams ds = Some b -> zlen b = dsize ds.
Proof.
  induction ds as [|d tl IH]; intros b H.
  - now injection H as <-.
  - apply enc_dgrams_cons_inv in H as (e & r & Ee & Er & ->).
    cbn [dsize]. rewrite zlen_app, (enc_dgram_length _ _ _ Ee), (IH _ Er). lia.
Qed.

(* the parser reads the encoded datagrams back; they are short enough for the
   11-bit length, and each takes at least one unit of fuel *)
Lemma parse_enc ds : forall b pos fuel, enc_dgrams ds = Some b -> ds <> [] ->
  dsize ds < 2048 -> dsize ds <= Z.of_nat fuel ->
  parse_dgrams fuel pos b = Some (specs pos ds).
Proof.
  induction ds as [|d tl IH]; intros b pos fuel He Hne Hl Hf; [congruence|].
  apply enc_dgrams_cons_inv in He as (e & r & Ee & Er & ->). cbn [dsize] in Hl, Hf.
  destruct (enc_dgram_shape _ _ _ Ee) as (a0 & a1 & a2 & a3 & l0 & l1 & w0 & w1 & -> & EA & EL & EW).
  pose proof (zlen_nonneg (d_data d)). pose proof (dsize_nonneg tl).
  destruct (lenfield_decode (zlen (d_data d)) (match tl with [] => false | _ => true end)) as [LM LB]; [lia|].
  destruct fuel as [|k]; [lia|].
  cbn [parse_dgrams app]. rewrite EL, LM, LB.
  unfold zlen at 1. rewrite Nat2Z.id, <- app_assoc, splitn_app. cbn [app].
  rewrite EA, EW. change (le_val [0; 0]) with 0.
  destruct tl as [|d2 tl2].
  - injection Er as <-. reflexivity.
  - rewrite (IH r (pos + 12 + zlen (d_data d)) k Er); [reflexivity|discriminate|lia|lia].
Qed.

Lemma appends_inv ds : forall p p' poss, appends p ds = Some (p', poss) ->
  p_size p' = p_size p + dsize ds /\ p_data p' = p_data p ++ ds /\ p_size p' <= Z.max (p_size p) Packet_MAXSIZE /\
  poss = map (fun s => (s_datapos s, s_datapos s + s_len s)) (specs (p_size p) ds).
Proof.
  induction ds as [|d tl IH]; intros p p' poss H; cbn [appends] in H.
  - injection H as <- <-. cbn [dsize specs map]. rewrite app_nil_r. repeat split; lia.
  - destruct (append p d) as [[p1 [a b]]|] eqn:Ea; [|discriminate].
    destruct (appends p1 tl) as [[p2 l]|] eqn:Et; [|discriminate].
    injection H as <- <-.
    apply append_inv in Ea as (S1 & D1 & -> & -> & M).
    destruct (IH _ _ _ Et) as (S2 & D2 & M2 & ->).
    cbn [dsize specs map s_datapos s_len].
    split; [lia|]. split; [rewrite D2, D1, <- app_assoc; reflexivity|]. split; [lia|].
    rewrite S1. do 3 f_equal. lia.
Qed.

Definition id_spec (index ethertype : Z) : pdgram :=
  {| s_cmd := 0; s_idx := 0; s_addr := index mod 4294967296; s_len := 2; s_more := true; s_irq := 0;
     s_data := le_bytes 2 ethertype; s_wkc := 0; s_datapos := 12 |}.

(* Packet.assemble: "An implicit empty datagram is added at the beginning of the
   packet".  After the length word the header bytes are those of a datagram with
   command 0, logical address index and the ethertype as data, `more` set, so
   what is proved about encoded datagrams covers the header too. *)
Definition id_dgram (index ethertype : Z) : dgram :=
  {| d_cmd := 0; d_data := le_bytes 2 ethertype; d_wkc := 0; d_idx := 0; d_addr := [index] |}.

Lemma assemble_inv p index ethertype f : assemble p index ethertype = Some f -> p_data p <> [] ->
  let lw := Z.lor (p_size p - 2) 4096 in
  exists b, enc_dgrams (id_dgram index ethertype :: p_data p) = Some b /\
    f = le_bytes 2 lw ++ b ++ repeat pad_byte (Z.to_nat (Packet_minpayload - p_size p)).
Proof.
  intros H Hne lw. unfold assemble in H. fold lw in H.
  set (pad := if _ <? _ then _ else _) in H.
  assert (Epad : pad = repeat pad_byte (Z.to_nat (Packet_minpayload - p_size p))).
  { subst pad. destruct (Z.ltb_spec (p_size p) Packet_minpayload); [reflexivity|].
    now replace (Z.to_nat (Packet_minpayload - p_size p)) with O by lia. }
  destruct (pack _ _) as [h|] eqn:Ph in H; [|discriminate].
  destruct (enc_dgrams (p_data p)) as [b|] eqn:Eb; [|discriminate].
  injection H as <-. unfold u8, u16, i32 in Ph. pack_inv Ph.
  cbn [enc_dgrams]. rewrite Eb.
  (* assemble packs 32770 = length 2 with `more` set whatever follows; enc_dgrams
     sets `more` only before a further datagram, so the two agree on a non-empty
     packet only (the frame of an empty one announces a datagram that is not there) *)
  destruct (p_data p) as [|d0 tl]; [congruence|].
  unfold enc_dgram, u8, u16, i32. cbn [id_dgram d_cmd d_data d_wkc d_idx d_addr pack].
  change (Z.lor (zlen (le_bytes 2 ethertype)) (Z.shiftl 1 15)) with 32770.
  rewrite R0, R2, R3, R4. cbn [option_map].
  eexists. split; [reflexivity|]. rewrite Epad, <- !app_assoc. reflexivity.
Qed.

Lemma parse_frame_enc n b pad : 0 <= n < 2048 -> zlen b = n ->
  parse_frame (le_bytes 2 (Z.lor n 4096) ++ b ++ pad) =
  option_map (fun ds => (n, ds, pad)) (parse_dgrams (length b) 2 b).
Proof.
  intros Hn Lb. destruct (hdr_decode n Hn) as (Hr & Hm & Hd).
  change (le_bytes 2 ?z ++ ?r) with (z mod 256 :: z / 256 mod 256 :: r). cbn [parse_frame].
  change (le_val [?z mod 256; ?z / 256 mod 256]) with (le_val (le_bytes 2 z)).
  rewrite le_val_le_bytes_small, Hm, Hd, <- Lb by exact Hr.
  unfold zlen. rewrite Nat2Z.id, splitn_app. reflexivity.
Qed.

(* a packet whose size field counts its datagrams assembles to a frame that the
   parser reads back as those datagrams behind the identification datagram *)
Theorem assemble_parse p index ethertype f :
  assemble p index ethertype = Some f -> p_data p <> [] ->
  p_size p = Packet_PACKET_HEADER + dsize (p_data p) -> p_size p <= Packet_MAXSIZE ->
  parse_frame f = Some (p_size p - 2, id_spec index ethertype :: specs 16 (p_data p),
                        repeat pad_byte (Z.to_nat (Packet_minpayload - p_size p))) /\
  zlen f = Z.max Packet_minpayload (p_size p).
Proof.
  intros Hasm Hne Hsz M. unfold Packet_PACKET_HEADER, Packet_MAXSIZE in *.
  destruct (assemble_inv _ _ _ _ Hasm Hne) as (b & Eb & ->).
  pose proof (enc_dgrams_length _ _ Eb) as Lb. pose proof (dsize_nonneg (p_data p)).
  assert (Ld : dsize (id_dgram index ethertype :: p_data p) = 14 + dsize (p_data p)) by reflexivity.
  split.
  - rewrite parse_frame_enc by lia.
    rewrite (parse_enc _ _ _ _ Eb); [|discriminate|lia|unfold zlen in Lb; lia].
    destruct (p_data p); [congruence|reflexivity].
  - rewrite !zlen_app, Lb. unfold zlen, Packet_minpayload. rewrite repeat_length. cbn [le_bytes length]. lia.
Qed.
