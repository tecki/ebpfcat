From Verif Require Import Ecat.Addr.

Lemma mem_in i l : mem i l = true <-> In i l.
Proof. apply existsb_Zeqb. Qed.

Lemma assigned_claim x i : assigned x = Some i -> claim x = Some i.
Proof. destruct x; cbn; congruence. Qed.

Definition tnth (s : st) (t : nat) : tstate := nth t (tasks s) (TKeep 0).

Record Inv (lo hi : Z) (pre : list Z) (s : st) : Prop := {
  i_len : length (tasks s) = length pre /\ length (bus s) = length pre;
  i_claim : forall t i, claim (tnth s t) = Some i -> In i (used s) /\ lo <= i <= hi;
  i_excl : forall t1 t2 i, t1 <> t2 -> claim (tnth s t1) = Some i -> claim (tnth s t2) = Some i -> False;
  (* an address a task is assigned is none that a terminal came with *)
  i_fresh : forall t i k, assigned (tnth s t) = Some i -> nth k pre 0 <> 0 -> nth k pre 0 <> i;
  i_pre : forall t, nth t pre 0 <> 0 -> nth t (bus s) 0 = nth t pre 0 /\ tnth s t = TKeep (nth t pre 0);
  (* a terminal that came without one answers at what its task has written so far *)
  i_bus : forall t, nth t pre 0 = 0 ->
          nth t (bus s) 0 = match tnth s t with TDone i => i | _ => 0 end }.

(* the task of a terminal that came with an address keeps it, the others start drawing; past the end
   of the bus the default of tnth, TKeep 0, has the form of the first *)
Lemma tnth_init pre t :
  tnth (init pre) t = TDraw /\ nth t pre 0 = 0 \/ tnth (init pre) t = TKeep (nth t pre 0).
Proof.
  unfold tnth, init. cbn [tasks]. set (f := fun a => if a =? 0 then TDraw else TKeep a).
  destruct (Nat.lt_ge_cases t (length pre)) as [L|L].
  - rewrite (nth_indep _ _ (f 0)), map_nth by now rewrite map_length.
    unfold f. destruct (Z.eqb_spec (nth t pre 0) 0); auto.
  - right. rewrite !nth_overflow; [reflexivity|exact L|now rewrite map_length].
Qed.

Lemma claim_init pre t : claim (tnth (init pre) t) = None.
Proof. destruct (tnth_init pre t) as [[-> _]| ->]; reflexivity. Qed.

Lemma inv_init lo hi pre : Inv lo hi pre (init pre).
Proof.
  constructor; cbn [init bus used tasks].
  - now rewrite map_length.
  - intros t i H. now rewrite claim_init in H.
  - intros t1 t2 i _ H. now rewrite claim_init in H.
  - intros t i k H%assigned_claim. now rewrite claim_init in H.
  - intros t H. destruct (tnth_init pre t) as [[_ E]|E]; [contradiction|now split].
  - intros t H. destruct (tnth_init pre t) as [[E _]|E]; now rewrite E.
Qed.

Lemma tnth_set s t v t' used' bus' : (t < length (tasks s))%nat ->
  tnth {| used := used'; bus := bus'; tasks := set_at t v (tasks s) |} t' = if Nat.eqb t t' then v else tnth s t'.
Proof. apply nth_set_at_in. Qed.

Definition written (x : tstate) : Z := match x with TDone i => i | _ => 0 end.

(* Every event moves ONE task t, which is not one that keeps its address, from a state a to a state b.  All of the
   invariant survives if
   - the claim is handed over against the record of the addresses drawn (a new claim is of an address of the range
     that is not on record yet);
   - what b is assigned, a was assigned already, or no terminal answers at it;
   - the bus is as it was, or b has written its address to terminal t. *)
Lemma move_inv lo hi pre s t a b used' bus' :
  Inv lo hi pre s -> nth_error (tasks s) t = Some a -> (forall x, a <> TKeep x) ->
  handover (fun i => In i (used s) /\ lo <= i <= hi) (claim a) (claim b) (fun i => In i used' /\ lo <= i <= hi) ->
  (forall i, assigned b = Some i -> assigned a = Some i \/ ~ In i (bus s)) ->
  (bus' = bus s /\ written b = written a \/ bus' = set_at t (written b) (bus s)) ->
  Inv lo hi pre {| used := used'; bus := bus'; tasks := set_at t b (tasks s) |}.
Proof.
  intros [[L1 L2] IC IE IF IP IB] E NK Hc Ha Hb.
  assert (Lt : (t < length (tasks s))%nat) by (apply nth_error_Some; congruence).
  apply (nth_error_nth _ _ (TKeep 0)) in E. fold (tnth s t) in E. subst a.
  assert (P0 : nth t pre 0 = 0).
  { destruct (Z.eq_dec (nth t pre 0) 0) as [|N]; [assumption|]. destruct (IP t N) as [_ K]. elim (NK _ K). }
  assert (B : length bus' = length (bus s) /\
              forall t', nth t' bus' 0 = if Nat.eqb t t' then written b else nth t' (bus s) 0).
  { destruct Hb as [[-> W]| ->].
    - split; [reflexivity|]. intros t'. destruct (Nat.eqb_spec t t') as [<-|]; [|reflexivity].
      rewrite W. apply IB, P0.
    - split; [apply set_at_length|]. intros t'. apply nth_set_at_in. now rewrite L2, <- L1. }
  destruct B as [BL B].
  set (s' := {| used := used'; bus := bus'; tasks := set_at t b (tasks s) |}).
  assert (T : forall t', tnth s' t' = if Nat.eqb t t' then b else tnth s t') by (intros t'; now apply tnth_set).
  (* the tasks own the addresses they claim, on the record `used` *)
  assert (U : uniq (fun j => claim (tnth s j))).
  { intros t1 t2 i H1 H2. destruct (Nat.eq_dec t1 t2) as [|N]; [assumption|]. elim (IE _ _ _ N H1 H2). }
  assert (TC : forall j, claim (tnth s' j) = if Nat.eqb t j then claim b else claim (tnth s j)).
  { intros j. rewrite T. now destruct (Nat.eqb t j). }
  destruct (handover_owners _ _ _ _ t _ _ IC U eq_refl TC Hc) as [IC' IE'].
  constructor; cbn [used bus tasks s'].
  - (* i_len *) now rewrite set_at_length, BL.
  - (* i_claim *) exact IC'.
  - (* i_excl *) intros t1 t2 i N H1 H2. exact (N (IE' t1 t2 i H1 H2)).
  - (* i_fresh *) intros t' i k H Pk. rewrite T in H.
    destruct (Nat.eqb_spec t t') as [<-|N]; [|exact (IF _ _ _ H Pk)].
    destruct (Ha _ H) as [A|NB]; [exact (IF _ _ _ A Pk)|].
    (* nobody answers at i, in particular no terminal that came with an address *)
    intros Ek. apply NB. destruct (IP k Pk) as [Bk _]. rewrite <- Ek, <- Bk. apply nth_In. rewrite L2.
    destruct (Nat.lt_ge_cases k (length pre)) as [|Lk]; [assumption|].
    now rewrite nth_overflow in Pk by exact Lk.
  - (* i_pre *) intros t' H. destruct (IP _ H) as [Bk K].
    assert (N : Nat.eqb t t' = false) by (apply Nat.eqb_neq; congruence).
    now rewrite B, T, N.
  - (* i_bus *) intros t' H. rewrite B, T.
    destruct (Nat.eqb_spec t t'); [reflexivity|apply IB, H].
Qed.

Lemma step_inv lo hi pre s e : Inv lo hi pre s -> Inv lo hi pre (step lo hi s e).
Proof.
  intros I. destruct e as [t i|t|t]; cbn [step].
  - (* Draw: the task claims an address of the range that nobody has drawn *)
    destruct (nth_error (tasks s) t) as [[| | | |]|] eqn:E; try exact I.
    destruct (negb _) eqn:R; [exact I|]. destruct (mem i (used s)) eqn:M; [exact I|].
    apply (move_inv _ _ _ _ _ _ _ _ _ I E); [discriminate| |discriminate|now left].
    apply HTake; [intros [H%mem_in _]; congruence|]. apply negb_false_iff in R.
    intros x [->|[H Rx]]; [split; [now left|lia]|split; [now right|exact Rx]].
  - (* Probed: the task keeps its claim if nobody answered, and gives it up otherwise *)
    destruct (nth_error (tasks s) t) as [[| |i| |]|] eqn:E; try exact I.
    apply (move_inv _ _ _ _ _ _ _ _ _ I E); [discriminate| | |left].
    + destruct (mem i (bus s)); [apply HDrop; auto|apply HKeep].
    + intros j H. right. destruct (mem i (bus s)) eqn:M; [discriminate|]. injection H as <-.
      rewrite <- mem_in. congruence.
    + now destruct (mem i (bus s)).
  - (* Wrote: the task keeps what it has and writes it to its terminal *)
    destruct (nth_error (tasks s) t) as [[| | |i|]|] eqn:E; try exact I.
    apply (move_inv _ _ _ _ _ _ _ _ _ I E); [discriminate|apply HKeep|now left|now right].
Qed.

Theorem reachable_inv lo hi pre evs : Inv lo hi pre (fold_left (step lo hi) evs (init pre)).
Proof. apply fold_left_inv; [intros s e; apply step_inv|apply inv_init]. Qed.
