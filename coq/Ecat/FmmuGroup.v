(* Several sync groups share one terminal (ebpfcat.py SyncGroupBase.map_fmmu): a group maps its output image, then its input
   image, inside one exit stack; when the second mapping is refused the first one is given back, and the group is refused as a
   whole.  Built on the terminal-level model Fmmu.v (slot choice, booking, release). *)
From Verif Require Export Ecat.Fmmu.

Inductive gop := GMap (g : nat) (out_ inp : option Z) | GUnmap (g : nat).
(* table + the running groups with the slots (python indices) they hold *)
Record gst := { gtbl : used; groups : list (nat * list Z) }.

Definition release_all (u : used) (slots : list Z) : used :=
  fold_left (fun u i => match map_exit u i with Some u' => u' | None => u end) slots u.

Definition group_enter (u : used) (out_ inp : option Z) : option (list Z * used) :=
  let first := match out_ with
               | None => Some ([], u)
               | Some lg => option_map (fun p => ([fst p], snd p)) (map_enter u true lg)
               end in
  match first with
  | None => None
  | Some (sl, u1) =>
      match inp with
      | None => Some (sl, u1)
      | Some lg =>
          match map_enter u1 false lg with
          | Some (i, u2) => Some (sl ++ [i], u2)
          | None => None          (* the exit stack unwinds: see C20_refused_group_restores *)
          end
      end
  end.

Definition gstep (s : gst) (o : gop) : gst :=
  match o with
  | GMap g out_ inp =>
      match group_enter (gtbl s) out_ inp with
      | Some (sl, u') => {| gtbl := u'; groups := groups s ++ [(g, sl)] |}
      | None => s
      end
  | GUnmap g =>
      match find (fun p => Nat.eqb (fst p) g) (groups s) with
      | Some (_, sl) => {| gtbl := release_all (gtbl s) (rev sl); groups := filter (fun p => negb (Nat.eqb (fst p) g)) (groups s) |}
      | None => s
      end
  end.
Definition ginit (n : nat) : gst := {| gtbl := repeat None n; groups := [] |}.

(* what the exit stack really does when the input mapping is refused after the output mapping was made: it leaves the output
   mapping again *)
Definition unwind (u : used) (out_ : option Z) (inp : Z) : option used :=
  match out_ with
  | None => match map_enter u false inp with None => Some u | Some _ => None end
  | Some lg =>
      match map_enter u true lg with
      | None => Some u
      | Some (i, u1) => match map_enter u1 false inp with None => map_exit u1 i | Some _ => None end
      end
  end.
