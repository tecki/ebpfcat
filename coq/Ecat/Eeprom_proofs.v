From Verif Require Import Lib.ListX Ecat.Eeprom.

(* byte-offset view of the image, 0xff beyond the end: img_bytes with a byte offset in
   place of the word address (img_bytes_pad holds by reflexivity).  It is there because
   C17_categories addresses the image by bytes (identity at 16 .. 31, categories from 128). *)
Definition pad_from (img : list Z) (off n : nat) : list Z := firstn n (skipn off img ++ repeat 255 n).

Lemma pad_from_length img off n : length (pad_from img off n) = n.
Proof. unfold pad_from. rewrite firstn_length, app_length, repeat_length. lia. Qed.

(* byte by byte: the image at off, off + 1, ..., and 0xff where it has ended *)
Lemma pad_from_seq img off n : pad_from img off n = map (fun i => nth i img 255) (seq off n).
Proof.
  apply (nth_ext _ _ 255 (nth O img 255)).
  - now rewrite pad_from_length, map_length, seq_length.
  - intros i Hi. rewrite pad_from_length in Hi. unfold pad_from.
    rewrite nth_firstn_lt, nth_app_repeat, nth_skipn by exact Hi.
    now rewrite (map_nth (fun i => nth i img 255)), seq_nth.
Qed.

Lemma pad_from_app img off a b : pad_from img off (a + b) = pad_from img off a ++ pad_from img (off + a) b.
Proof. rewrite !pad_from_seq, seq_app. apply map_app. Qed.

Lemma pad_from_firstn img off n m : (n <= m)%nat -> firstn n (pad_from img off m) = pad_from img off n.
Proof.
  intros H. replace m with (n + (m - n))%nat by lia. rewrite pad_from_app.
  apply firstn_app_exact', pad_from_length.
Qed.

Lemma pad_from_skipn img off n m : (n <= m)%nat -> skipn n (pad_from img off m) = pad_from img (off + n) (m - n).
Proof.
  intros H. replace m with (n + (m - n))%nat at 1 by lia. rewrite pad_from_app.
  apply skipn_app_exact', pad_from_length.
Qed.

(* where the image is known, the view is the image; what follows it comes next.
   n is explicit: the callers name the number of bytes they asked get_data for (2, 4)
   and pass eq_refl for length X = n, which holds by conversion for the X at hand
   (le_bytes 2 _ ++ le_bytes 2 _); with _ for n it becomes length X. *)
Lemma pad_from_exact {img off X rest} n : skipn off img = X ++ rest -> length X = n ->
  pad_from img off n = X /\ skipn (off + n) img = rest.
Proof.
  intros H <-. split.
  - unfold pad_from. rewrite H, <- app_assoc. apply firstn_app_exact.
  - rewrite <- skipn_add, H. apply skipn_app_exact.
Qed.

Lemma img_bytes_pad img w n : img_bytes img w n = pad_from img (Z.to_nat (2 * w)) n.
Proof. reflexivity. Qed.

(* _eeprom_read_one returns the 8 image bytes at the word address, whatever
   the read width of the interface and whatever it leaves in the unused half *)
Theorem read_one_exact img mode8 junk start : 0 <= start ->
  eeprom_read_one img mode8 junk start = img_bytes img start 8.
Proof.
  intros H. unfold eeprom_read_one. destruct mode8; [reflexivity|].
  rewrite !img_bytes_pad.
  rewrite firstn_app_exact' by apply pad_from_length.
  change 8%nat with (4 + 4)%nat. rewrite pad_from_app. f_equal. f_equal. lia.
Qed.

Section Reader.
  Variable img : list Z.
  Variable rd : Z -> list Z.
  Hypothesis rd_ok : forall p, 0 <= p -> rd p = img_bytes img p 8.

  (* the buffer holds the image bytes from byte offset `off` up to the read position *)
  Definition holds (s : rd_state) (off : nat) : Prop :=
    exists n, rd_buf s = pad_from img off n /\ 2 * rd_pos s = Z.of_nat (off + n).

  Lemma refill_ok fuel : forall size s off, holds s off ->
    (size <= length (rd_buf s) + 8 * fuel)%nat ->
    holds (refill fuel rd size s) off /\ (size <= length (rd_buf (refill fuel rd size s)))%nat.
  Proof.
    induction fuel as [|k IH]; intros size s off H F; cbn [refill].
    - split; [exact H|lia].
    - destruct (Nat.ltb_spec (length (rd_buf s)) size) as [L|L]; [|split; [exact H|lia]].
      destruct H as (n & B & P).
      assert (R : rd (rd_pos s) = pad_from img (off + n) 8)
        by (rewrite rd_ok, img_bytes_pad by lia; f_equal; lia).
      apply IH.
      + exists (n + 8)%nat. cbn [rd_pos rd_buf]. rewrite R, B, pad_from_app. split; [reflexivity|lia].
      + cbn [rd_pos rd_buf]. rewrite R, app_length, pad_from_length. lia.
  Qed.

  Lemma get_data_ok size s off : holds s off ->
    exists s', get_data rd size s = (pad_from img off size, s') /\ holds s' (off + size).
  Proof.
    intros H. unfold get_data.
    destruct (refill_ok (S size) size s off H ltac:(lia)) as [(n & B & P) L].
    set (s' := refill (S size) rd size s) in *. rewrite B in *. rewrite pad_from_length in L.
    eexists. split.
    - f_equal. apply pad_from_firstn, L.
    - exists (n - size)%nat. cbn [rd_pos rd_buf]. split; [apply pad_from_skipn, L|lia].
  Qed.

  Lemma read_cats_ok tail : forall cats fuel s off acc,
    holds s off -> skipn off img = enc_cats cats ++ tail -> Forall cat_ok cats ->
    (length cats < fuel)%nat ->
    read_cats fuel rd s acc = Some (rev acc ++ cats).
  Proof.
    induction cats as [|[ty c] tl IH]; intros [|k] s off acc H HS W F; try (cbn in F; lia).
    (* either way the loop first reads four bytes *)
    all: cbn [read_cats enc_cats] in *.
    all: destruct (get_data_ok 4 s off H) as (s1 & -> & H1); cbv beta iota zeta.
    - (* the end marker; the other two bytes read with it are whatever follows *)
      destruct (pad_from_exact 2 HS eq_refl) as [E _].
      rewrite pad_from_firstn, E by lia. now rewrite app_nil_r.
    - inversion W as [|? ? (Rty & Ev & Rws) Wtl]; subst. cbn [fst snd] in *.
      (* the header: type and length in words *)
      rewrite <- !app_assoc, (app_assoc (le_bytes 2 ty)) in HS.
      destruct (pad_from_exact 4 HS eq_refl) as [-> S1].
      rewrite firstn_app_exact', skipn_app_exact' by apply le_bytes_length.
      pose proof (zlen_nonneg c) as Zc. rewrite !le_val_le_bytes_small by lia.
      destruct (Z.eqb_spec ty 65535); [lia|].
      replace (Z.to_nat (zlen c / 2 * 2)) with (length c)
        by (apply Z.even_spec in Ev as [q Eq]; unfold zlen in *; lia).
      (* the content *)
      destruct (get_data_ok (length c) s1 (off + 4) H1) as (s2 & -> & H2).
      destruct (pad_from_exact _ S1 eq_refl) as [-> S2].
      rewrite (IH k s2 _ ((ty, c) :: acc) H2 S2 Wtl) by (cbn in F; lia).
      cbn [rev]. now rewrite <- app_assoc.
  Qed.

  (* read_eeprom through any access function that returns the image bytes, on
     ANY image whose category area (from word 0x40) is the SII encoding of
     `cats` followed by anything: identity fields and all categories come back
     exactly *)
  Theorem read_eeprom_spec cats tail fuel :
    skipn 128 img = enc_cats cats ++ tail -> Forall cat_ok cats -> (length cats < fuel)%nat ->
    let r := read_eeprom fuel rd in
    snd r = Some cats /\
    vendorId (fst r) = le_val (pad_from img 16 4) /\ productCode (fst r) = le_val (pad_from img 20 4) /\
    revisionNo (fst r) = le_val (pad_from img 24 4) /\ serialNo (fst r) = le_val (pad_from img 28 4).
  Proof.
    intros HS W F r. subst r. unfold read_eeprom. cbn [fst snd vendorId productCode revisionNo serialNo].
    split.
    - apply (read_cats_ok tail cats fuel _ 128%nat []); try assumption. exists O. split; reflexivity.
    - rewrite !rd_ok, !img_bytes_pad by lia.
      change (Z.to_nat (2 * 8)) with 16%nat. change (Z.to_nat (2 * 12)) with 24%nat.
      rewrite !pad_from_firstn, !pad_from_skipn by lia. repeat split; reflexivity.
  Qed.
End Reader.

Lemma enc_cats_length cats : (4 * length cats + 2 <= length (enc_cats cats))%nat.
Proof.
  induction cats as [|[ty c] tl IH]; cbn [enc_cats length].
  - rewrite le_bytes_length. lia.
  - rewrite !app_length, !le_bytes_length. lia.
Qed.

Definition sm_ok (e : sm_entry) : Prop :=
  0 <= sm_start e < 65536 /\ 0 <= sm_len e < 65536 /\ 0 <= sm_ctl e < 256 /\ length (sm_rest e) = 3%nat.

Definition sm_step (i : Z) (l : sm_layout) (e : sm_entry) : sm_layout :=
  let mode := Z.land (sm_ctl e) 15 in
  let v := Some (sm_start e, sm_len e) in
  if mode =? 0 then {| mbx_out := mbx_out l; mbx_in := mbx_in l; pdo_out := pdo_out l; pdo_in := v;
                       pdo_out_addr := pdo_out_addr l; pdo_in_addr := 2048 + i |}
  else if mode =? 2 then {| mbx_out := mbx_out l; mbx_in := v; pdo_out := pdo_out l; pdo_in := pdo_in l;
                            pdo_out_addr := pdo_out_addr l; pdo_in_addr := pdo_in_addr l |}
  else if mode =? 4 then {| mbx_out := mbx_out l; mbx_in := mbx_in l; pdo_out := v; pdo_in := pdo_in l;
                            pdo_out_addr := 2048 + i; pdo_in_addr := pdo_in_addr l |}
  else if mode =? 6 then {| mbx_out := v; mbx_in := mbx_in l; pdo_out := pdo_out l; pdo_in := pdo_in l;
                            pdo_out_addr := pdo_out_addr l; pdo_in_addr := pdo_in_addr l |}
  else l.

(* the k-th entry sits at register 0x800 + 8k; later entries of a kind win *)
Fixpoint sm_table (i : Z) (es : list sm_entry) (l : sm_layout) : sm_layout :=
  match es with
  | [] => l
  | e :: tl => sm_table (i + 8) tl (sm_step i l e)
  end.

(* one entry, as parse_sync_managers reads it.  Here and in parse_entries_step each 16-bit
   field x on the right is first written le_val (le_bytes 2 x), which is what the parser
   makes of the encoded bytes; after that both sides compute to the same term. *)
Lemma parse_sms_step k i e rest l : sm_ok e ->
  parse_sms (S k) i (enc_sm e ++ rest) l = parse_sms k (i + 8) rest (sm_step i l e).
Proof.
  intros (Rs & Rl & _ & Lr). unfold sm_step.
  rewrite <- (le_val_le_bytes_small 2 (sm_start e) Rs), <- (le_val_le_bytes_small 2 (sm_len e) Rl).
  unfold enc_sm. destruct (sm_rest e) as [|r0 [|r1 [|r2 [|]]]]; try discriminate Lr. reflexivity.
Qed.

Definition entry_ok (e : pdo_entry) : Prop := 0 <= e_idx e < 65536.
Definition pdo_ok (p : pdo) : Prop := zlen (p_entries p) < 256 /\ Forall entry_ok (p_entries p).
Definition triple (e : pdo_entry) : Z * Z * Z := (e_idx e, e_sub e, e_bits e).

(* one entry record, as parse_pdos reads it *)
Lemma parse_entries_step n e rest : entry_ok e ->
  parse_entries (S n) (enc_entry e ++ rest) =
  match parse_entries n rest with None => None | Some (es, r) => Some (triple e :: es, r) end.
Proof. intros R. unfold triple. rewrite <- (le_val_le_bytes_small 2 (e_idx e) R). reflexivity. Qed.

Lemma parse_entries_spec : forall es rest, Forall entry_ok es ->
  parse_entries (length es) (flat_map enc_entry es ++ rest) = Some (map triple es, rest).
Proof.
  induction es as [|e tl IH]; intros rest W; [reflexivity|].
  inversion W as [|? ? R Wtl]; subst. cbn [flat_map length map].
  now rewrite <- app_assoc, parse_entries_step, IH.
Qed.

(* one PDO: the header gives the number of entry records that follow *)
Lemma parse_pdo_cat_step k p rest : pdo_ok p ->
  parse_pdo_cat (S k) (enc_pdo p ++ rest) =
  option_map (app (map triple (p_entries p))) (parse_pdo_cat k rest).
Proof.
  intros [_ We]. unfold enc_pdo.
  cbn [parse_pdo_cat le_bytes app length Nat.ltb Nat.leb nth skipn].
  unfold zlen. now rewrite Nat2Z.id, parse_entries_spec.
Qed.

(* layout: bit positions are the running sums of the entry lengths.  positions, total_bits and
   aligned are the vocabulary of C17_pdo_layout / C17_pdo_layout_total (Props/C17.v). *)
Fixpoint positions (es : list (Z * Z * Z)) (bitpos : Z) : list (Z * Z * pdo_pos) :=
  match es with
  | [] => []
  | (idx, sub, bits) :: tl =>
      (if idx =? 0 then []
       else [(idx, sub, if bits <? 8 then PBit (bitpos / 8) (bitpos mod 8) else PFmt (bitpos / 8) bits)])
      ++ positions tl (bitpos + bits)
  end.
Definition total_bits (es : list (Z * Z * Z)) : Z := fold_right (fun e acc => snd e + acc) 0 es.

(* the maps layout accepts: gaps and sub-byte entries anywhere, 8/16/32/64-bit
   entries on byte boundaries *)
Fixpoint aligned (es : list (Z * Z * Z)) (bitpos : Z) : Prop :=
  match es with
  | [] => True
  | (idx, sub, bits) :: tl =>
      (idx = 0 \/ bits < 8 \/ (bitpos mod 8 = 0 /\ (bits = 8 \/ bits = 16 \/ bits = 32 \/ bits = 64)))
      /\ aligned tl (bitpos + bits)
  end.
