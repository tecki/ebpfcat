From Verif Require Import Lib.ListX Ecat.Cycle.

Lemma set_byte_set_at l : forall n v, set_byte n v l = set_at n v l.
Proof. induction l; intros [|n] v; cbn [set_byte set_at]; congruence. Qed.

Lemma clear_word_length f pos : length (clear_word f pos) = length f.
Proof. unfold clear_word. now rewrite !set_byte_set_at, !set_at_length. Qed.

Lemma clear_counters_length cs : forall f, length (clear_counters cs f) = length f.
Proof.
  intros f. apply (fold_left_inv (fun g => length g = length f)); [|reflexivity].
  intros g c <-. apply clear_word_length.
Qed.

Lemma clear_word_nth f pos m : nth m (clear_word f pos) 0 =
  if (Nat.eqb m pos || Nat.eqb m (S pos))%bool then 0 else nth m f 0.
Proof.
  unfold clear_word. rewrite !set_byte_set_at, !nth_set_at_default, !(Nat.eqb_sym _ m).
  now destruct (Nat.eqb m pos), (Nat.eqb m (S pos)).
Qed.

Definition is_counter_byte (cs : list (nat * Z)) (m : nat) : bool :=
  existsb (fun c => (Nat.eqb m (fst c) || Nat.eqb m (S (fst c)))%bool) cs.

Lemma clear_counters_nth cs : forall f m,
  nth m (clear_counters cs f) 0 = if is_counter_byte cs m then 0 else nth m f 0.
Proof.
  unfold clear_counters. induction cs as [|c cs IH]; intros f m; cbn [fold_left is_counter_byte existsb].
  { reflexivity. }
  rewrite IH, clear_word_nth. fold (is_counter_byte cs m).
  destruct (is_counter_byte cs m); [now rewrite orb_true_r|now rewrite orb_false_r].
Qed.

Lemma apply_patches_untouched ps : forall f m, (forall p, In p ps -> fst p <> m) ->
  nth m (apply_patches ps f) 0 = nth m f 0.
Proof.
  unfold apply_patches. induction ps as [|p ps IH]; intros f m H; cbn [fold_left]; [reflexivity|].
  rewrite IH by (intros q Hq; apply H; now right).
  rewrite set_byte_set_at. apply nth_set_at_other, H. now left.
Qed.

(* the number of errors is the number of datagrams whose returned 16-bit
   working counter differs from the expected count *)
Lemma count_errors_spec cs resp :
  count_errors cs resp = zlen (filter (fun c => negb (word_at resp (fst c) =? snd c)) cs).
Proof. reflexivity. Qed.

Lemma count_errors_step c cs resp :
  count_errors (c :: cs) resp = (if word_at resp (fst c) =? snd c then 0 else 1) + count_errors cs resp.
Proof.
  unfold count_errors, zlen. cbn [filter]. destruct (word_at resp (fst c) =? snd c); cbn [negb length]; lia.
Qed.

Lemma count_errors_zero_iff cs resp :
  count_errors cs resp = 0 <-> Forall (fun c => word_at resp (fst c) = snd c) cs.
Proof.
  induction cs as [|c cs IH]; [split; [constructor|reflexivity]|].
  rewrite count_errors_step, Forall_cons_iff, <- IH.
  assert (0 <= count_errors cs resp) by apply zlen_nonneg.
  destruct (Z.eqb_spec (word_at resp (fst c)) (snd c)); lia.
Qed.
