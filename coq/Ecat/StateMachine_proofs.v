From Verif Require Import Lib.ListX Ecat.StateMachine.

Lemma writes_app a b : writes (a ++ b) = writes a ++ writes b.
Proof. apply flat_map_app. Qed.

Lemma last_report_app a b d : last_report (a ++ b) d = last_report b (last_report a d).
Proof. apply fold_left_app. Qed.

Lemma has_error_app a b : has_error_read (a ++ b) = has_error_read a || has_error_read b.
Proof. apply existsb_app. Qed.

Lemma ordered_reads t : writes t = [] -> forall p, ordered p t = true.
Proof.
  induction t as [|[z|r] t IH]; intros Wt p; cbn [ordered]; [reflexivity|discriminate|].
  destruct p as [c|]; [destruct (_ && _)|]; apply IH, Wt.
Qed.

Lemma path_bounds st tg c : In c (path st tg) -> st < c <= tg.
Proof. unfold path. rewrite filter_In. intros [_ H]. lia. Qed.

(* what one polling phase does; it ends the call only by an error, a bad
   reply or the end of the stream.  The outcomes: Returned = `return ret`;
   Raised = EtherCatError on a reported error; Waiting = the stream of replies
   is exhausted (the call is still polling); BadReply = MachineState(state & 0xf)
   raises ValueError, the four bits being no member; FellOff = the for-loop
   ended without a return (go on []), which GoSpec excludes. *)
Lemma poll_spec c : forall rs t o rest, poll c rs = (t, o, rest) ->
  writes t = [] /\
  match o with
  | None => (forall t2, ordered (Some c) (t ++ t2) = ordered None t2) /\
            (forall d, last_report t d = c) /\ has_error_read t = false
  | Some Raised => has_error_read t = true
  | Some BadReply => True
  | Some Waiting => has_error_read t = false
  | Some _ => False
  end.
Proof.
  induction rs as [|r rs IH]; intros t o rest H; cbn [poll] in H.
  - injection H as <- <- <-. split; reflexivity.
  - destruct (negb (valid_state (Z.land r 15))); [injection H as <- <- <-; split; [reflexivity|exact I]|].
    destruct (Z.land r 16 =? 0) eqn:E16; [|injection H as <- <- <-; cbn; rewrite E16; split; reflexivity].
    destruct (Z.land r 15 =? c) eqn:E15.
    + (* the requested state is reported *)
      injection H as <- <- <-. cbn. rewrite E15, E16. repeat split. lia.
    + (* another state: this read changes nothing and polling goes on *)
      destruct (poll c rs) as [[t' o'] rest']. injection H as <- <- <-.
      destruct (IH _ _ _ eq_refl) as [Wt Ho]. split; [exact Wt|].
      cbn [app ordered last_report fold_left has_error_read existsb]. rewrite E15, E16. cbn [andb negb orb].
      destruct o' as [[]|]; try exact Ho. destruct Ho as (O & L & Er). auto.
Qed.

Definition GoSpec (state target : Z) (t : list ev) (o : outcome) : Prop :=
  (exists k, writes t = firstn k (path state target)) /\
  ordered None t = true /\
  (o = Returned -> writes t = path state target /\
                   last_report t state = (if state <? target then target else state) /\
                   has_error_read t = false) /\
  (o = Raised -> has_error_read t = true) /\
  (o = Waiting -> has_error_read t = false) /\
  o <> FellOff.

(* the literals are the MachineState_* values of Generated/Consts.v; go_spec and valid_start meet the regenerated table by
   `cbv`, so a changed table in the source breaks them *)
Definition is_target (tg : Z) : Prop := tg = 2 \/ tg = 4 \/ tg = 8.
Definition is_start (s : Z) : Prop := s = 1 \/ s = 2 \/ s = 4 \/ s = 8.

(* at or above the target the loop returns at once, and no state lies in between *)
Lemma go_done c cs state target rs : target <= state ->
  GoSpec state target (fst (go (c :: cs) state target rs)) (snd (go (c :: cs) state target rs)).
Proof.
  intros Hle. cbn [go]. destruct (Z.geb_spec state target); [|lia]. cbn [fst snd].
  assert (P : path state target = []).
  { destruct (path state target) as [|x l] eqn:E; [reflexivity|].
    assert (state < x <= target) by (apply path_bounds; rewrite E; left; reflexivity). lia. }
  unfold GoSpec. rewrite P. destruct (Z.ltb_spec state target); [lia|].
  split; [exists O; reflexivity|]. repeat split; discriminate.
Qed.

(* one round of the loop: request c, the first state of the path, poll for
   it, and go on from there *)
Lemma go_step state target c cs rs :
  path state target = c :: path c target ->
  (forall rs', GoSpec c target (fst (go cs c target rs')) (snd (go cs c target rs'))) ->
  GoSpec state target (fst (go (c :: cs) state target rs)) (snd (go (c :: cs) state target rs)).
Proof.
  intros Hp IH.
  assert (Hc : state < c <= target) by (apply path_bounds; rewrite Hp; left; reflexivity).
  cbn [go]. destruct (Z.geb_spec state target); [lia|]. destruct (Z.eqb_spec c state); [lia|].
  destruct (poll c rs) as [[t1 o1] rest] eqn:P.
  destruct (poll_spec _ _ _ _ _ P) as [W1 S1].
  destruct o1 as [out|].
  - (* the polling phase ended the call *)
    cbn [fst snd]. unfold GoSpec.
    change (writes (W c :: t1)) with (c :: writes t1).
    change (has_error_read (W c :: t1)) with (has_error_read t1).
    rewrite W1, Hp.
    split; [exists 1%nat; reflexivity|]. split; [apply (ordered_reads t1 W1)|].
    destruct out; try contradiction; repeat split; try discriminate; intros _; exact S1.
  - (* c was reported: the rest of the trace is a walk from c *)
    specialize (IH rest). destruct (go cs c target rest) as [t2 o2]. cbn [fst snd] in *.
    destruct S1 as (O1 & L1 & E1). destruct IH as ((k & Wk) & O2 & R2 & Rest).
    unfold GoSpec.
    change (writes (W c :: t1 ++ t2)) with (c :: writes (t1 ++ t2)).
    change (ordered None (W c :: t1 ++ t2)) with (ordered (Some c) (t1 ++ t2)).
    change (last_report (W c :: t1 ++ t2) state) with (last_report (t1 ++ t2) state).
    change (has_error_read (W c :: t1 ++ t2)) with (has_error_read (t1 ++ t2)).
    rewrite writes_app, W1, Hp, O1, last_report_app, L1, has_error_app, E1. cbn [app orb].
    split; [exists (S k); cbn [firstn]; now rewrite Wk|].
    split; [exact O2|]. split; [|exact Rest].
    intros E. destruct (R2 E) as (A & B & C). rewrite A, B, C.
    destruct (Z.ltb_spec state target), (Z.ltb_spec c target); repeat split; lia.
Qed.

(* the loop over order[order.index(state) + 1:], for every start state: by
   induction over the states still to come; the table of states enters only
   where the next one is looked up *)
Lemma go_spec target : is_target target -> forall cs st, is_start st ->
  cs = tail_after st MachineState_order ->
  forall rs, GoSpec st target (fst (go cs st target rs)) (snd (go cs st target rs)).
Proof.
  intros Ht. induction cs as [|c cs IH]; intros st Hs E rs.
  - destruct Hs as [-> | [-> | [-> | ->]]]; discriminate E.
  - destruct (Z.le_gt_cases target st) as [Done|More]; [now apply go_done|].
    assert (N : path st target = c :: path c target /\ is_start c /\ cs = tail_after c MachineState_order).
    { unfold is_start.
      destruct Hs as [-> | [-> | [-> | ->]]], Ht as [-> | [-> | ->]]; try lia;
        cbv in E; injection E as -> ->; (split; [reflexivity|split; [lia|reflexivity]]). }
    destruct N as (P & Hc & Ec). apply go_step; auto.
Qed.

Lemma valid_start s : valid_state s = true -> s <> MachineState_BOOTSTRAP -> is_start s.
Proof. intros H%existsb_Zeqb N. cbv in H, N. unfold is_start. lia. Qed.
