(* SterilePacket.sterile: the sterile copy is exactly the frame assembled from
   the same datagrams with the command of every write datagram replaced by NOP. *)
From Verif Require Import Lib.ListX Lib.Struct_proofs Ecat.Frame Ecat.Frame_proofs.

Lemma set_nth_set_at l : forall n v, set_nth n v l = set_at n v l.
Proof. induction l; intros [|n] v; cbn [set_nth set_at]; congruence. Qed.

Definition nop (d : dgram) : dgram :=
  {| d_cmd := ECCmd_NOP; d_data := d_data d; d_wkc := d_wkc d; d_idx := d_idx d; d_addr := d_addr d |}.
Definition nop_if (o : bool * dgram) : dgram := if fst o then nop (snd o) else snd o.

Fixpoint s_appends (s : spacket) (ops : list (bool * dgram)) : option spacket :=
  match ops with
  | [] => Some s
  | (w, d) :: tl =>
      match (if w then s_append_writer s d else s_append s d) with
      | None => None
      | Some s' => s_appends s' tl
      end
  end.

(* what append_writer records (start, stop, command) for the writer datagrams
   among ops, the first datagram starting at `base` *)
Fixpoint otf (base : Z) (ops : list (bool * dgram)) : list (Z * Z * Z) :=
  match ops with
  | [] => []
  | (w, d) :: tl =>
      let stop := base + zlen (d_data d) + 12 in
      (if w then [(base, stop, d_cmd d)] else []) ++ otf stop tl
  end.

(* the command is the first item packed, in either address form, so it is the
   first byte, and NOP is in range as the command of d is *)
Lemma enc_dgram_nop more d e : enc_dgram more d = Some e ->
  exists c r, e = c :: r /\ enc_dgram more (nop d) = Some (ECCmd_NOP :: r).
Proof.
  unfold enc_dgram. cbn [nop d_cmd d_data d_wkc d_idx d_addr].
  destruct (d_addr d) as [|x [|y [|? ?]]]; try discriminate.
  all: unfold u8; rewrite (pack_int _ _ _ (d_cmd d)), (pack_int _ _ _ ECCmd_NOP).
  all: change (in_range 1 false ECCmd_NOP) with true; destruct (in_range 1 false (d_cmd d)); [|discriminate].
  all: destruct (pack _ _) as [h|]; [|discriminate]; destruct (pack _ _) as [w|]; [|discriminate].
  all: intros [= <-]; eexists _, _; split; reflexivity.
Qed.

Lemma nop_data_len d : zlen (d_data (nop d)) = zlen (d_data d).
Proof. reflexivity. Qed.

(* patching the command bytes at the recorded offsets = re-encoding with NOPs *)
Lemma patch_is_nop ops : forall pre B post, enc_dgrams (map snd ops) = Some B ->
  exists B', enc_dgrams (map nop_if ops) = Some B' /\ length B' = length B /\
    fold_left (fun acc e => set_nth (Z.to_nat (fst (fst e))) ECCmd_NOP acc) (otf (zlen pre) ops) (pre ++ B ++ post)
    = pre ++ B' ++ post.
Proof.
  induction ops as [|[w d] tl IH]; intros pre B post H.
  - injection H as <-. now exists [].
  - cbn [map snd] in H. apply enc_dgrams_cons_inv in H as (e & B2 & Ee & E2 & ->).
    pose proof (enc_dgram_length _ _ _ Ee) as Le.
    destruct (enc_dgram_nop _ _ _ Ee) as (c & r & -> & En).
    set (e' := (if w then ECCmd_NOP else c) :: r). change (zlen e' = 12 + zlen (d_data d)) in Le.
    assert (Ee' : enc_dgram (match map nop_if tl with [] => false | _ => true end) (nop_if (w, d)) = Some e').
    { replace (match map nop_if tl with [] => false | _ => true end)
        with (match map snd tl with [] => false | _ => true end) by now destruct tl.
      destruct w; [exact En|exact Ee]. }
    destruct (IH (pre ++ e') B2 post E2) as (B2' & EB2 & LB2 & F).
    exists (e' ++ B2'). cbn [map enc_dgrams]. rewrite Ee', EB2.
    split; [reflexivity|]. split; [rewrite !app_length, LB2; reflexivity|].
    cbn [otf]. rewrite fold_left_app.
    replace (zlen pre + zlen (d_data d) + 12) with (zlen (pre ++ e')) by (rewrite zlen_app; lia).
    rewrite <- !app_assoc in F |- *. rewrite <- F. f_equal.
    destruct w; [|reflexivity].
    cbn [fold_left fst app]. unfold zlen. now rewrite Nat2Z.id, set_nth_set_at, set_at_after.
Qed.

Lemma s_appends_inv ops : forall s s', s_appends s ops = Some s' ->
  p_data (sp s') = p_data (sp s) ++ map snd ops /\
  on_the_fly s' = on_the_fly s ++ otf (p_size (sp s)) ops.
Proof.
  induction ops as [|[w d] tl IH]; intros s s' H; cbn [s_appends] in H.
  - injection H as <-. cbn [map otf]. now rewrite !app_nil_r.
  - destruct (if w then _ else _) as [s1|] eqn:E1; [|discriminate].
    apply s_append_inv in E1 as ([[a b] Ea] & O1). apply append_inv in Ea as (S1 & D1 & _).
    destruct (IH _ _ H) as (D2 & O2).
    cbn [map snd otf]. rewrite D2, D1, O2, O1, S1, <- !app_assoc. split; reflexivity.
Qed.

Definition empty_s : spacket := {| sp := empty_packet; on_the_fly := [] |}.

(* a sterile packet that holds the datagrams of ops and has recorded the writers
   among them: patching the assembled frame = assembling with NOPs.  (Without a
   frame to patch the two can differ: NOP may bring a command into range.) *)
Lemma sterile_nop ops s index ethertype f :
  p_data (sp s) = map snd ops -> on_the_fly s = otf Packet_PACKET_HEADER ops ->
  assemble (sp s) index ethertype = Some f ->
  sterile s index ethertype =
    assemble {| p_data := map nop_if ops; p_size := p_size (sp s) |} index ethertype /\
  exists f', sterile s index ethertype = Some f' /\ length f' = length f.
Proof.
  intros D O Ha. unfold sterile, assemble in *. cbn [p_data p_size].
  destruct (pack _ _) as [h|] eqn:Ph; [|discriminate].
  rewrite D in *. destruct (enc_dgrams (map snd ops)) as [B|] eqn:EB; [|discriminate].
  set (post := if p_size (sp s) <? Packet_minpayload then _ else _) in *.
  injection Ha as <-. cbn [option_map].
  assert (Lh : zlen h = Packet_PACKET_HEADER).
  { apply pack_length in Ph. unfold zlen. now rewrite Ph. }
  destruct (patch_is_nop ops h B post EB) as (B' & -> & LB' & F).
  rewrite O, <- Lh, F. split; [reflexivity|]. eexists. split; [reflexivity|].
  rewrite !app_length. lia.
Qed.
