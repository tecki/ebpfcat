From Verif Require Import Ecat.Dispatch_proofs Ecat.UserLoop.

(* sterile() writes NOP over the command byte of every write datagram and nothing else *)
Lemma sterile_length l : forall f, length (sterile l f) = length f.
Proof.
  induction l as [|[[[st w] c] e] tl IH]; intros f; cbn [sterile]; [reflexivity|].
  rewrite IH. apply set_byte_length.
Qed.

Lemma sterile_other l : forall f j, (forall st w c e, In (st, w, c, e) l -> (st + 14)%nat <> j) ->
  byte_at (sterile l f) j = byte_at f j.
Proof.
  induction l as [|[[[st w] c] e] tl IH]; intros f j H; cbn [sterile]; [reflexivity|].
  rewrite IH by (intros; eapply H; right; eassumption).
  apply byte_set_other. intros ->. eapply H; [left; reflexivity | reflexivity].
Qed.

(* a byte that is NOP stays NOP, which settles datagrams that share a command byte *)
Lemma sterile_nop l : forall f st w c e,
  (In (st, w, c, e) l \/ byte_at f (st + 14) = 0) -> (st + 14 < length f)%nat ->
  byte_at (sterile l f) (st + 14) = 0.
Proof.
  induction l as [|[[[st' w'] c'] e'] tl IH]; intros f st w c e H L; cbn [sterile].
  { destruct H as [[]|H]; exact H. }
  apply (IH _ st w c e); [|rewrite set_byte_length; exact L].
  destruct (Nat.eq_dec (st + 14) (st' + 14)) as [<-|N]; [right; apply byte_set_same, L|].
  rewrite byte_set_other by exact N. destruct H as [[[=]|H]|H]; [lia|left; exact H|right; exact H].
Qed.

(* the loop never hands anything but asm_packet to the socket - whatever arrives, whenever the timeout strikes *)
Theorem uloop_sends_asm asm evs : u_data (uloop asm evs) = asm /\ Forall (eq asm) (u_sent (uloop asm evs)).
Proof.
  apply (fold_left_inv (fun s => u_data s = asm /\ Forall (eq asm) (u_sent s))).
  - intros s e [Hd Hs].
    assert (Hs' : forall d, asm = d -> Forall (eq asm) (u_sent s ++ [d])) by (intros; apply Forall_app; auto).
    destruct e as [f|]; split; cbn; auto.
  - split; [reflexivity | repeat constructor].
Qed.

(* what the devices read (current_data) is only ever an ACTIVE response *)
Theorem current_data_is_active asm evs f : u_cur (uloop asm evs) = Some f -> active f = true.
Proof.
  revert f. apply (fold_left_inv (fun s => forall f, u_cur s = Some f -> active f = true)); [|discriminate].
  intros s e Hs f. destruct e as [r|]; cbn [ustep update_devices u_cur]; [|apply Hs].
  destruct (active r) eqn:Ea; [intros [= <-]; exact Ea | apply Hs].
Qed.
