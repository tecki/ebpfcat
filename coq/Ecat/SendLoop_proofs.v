From Verif Require Import Ecat.Frame_proofs Ecat.SendLoop.

Fixpoint fsum (f : list rq) : Z := match f with [] => 0 | r :: tl => zlen (q_data r) + 12 + fsum tl end.
Lemma fsum_app a b : fsum (a ++ b) = fsum a + fsum b.
Proof. induction a as [|x a IH]; cbn [app fsum]; lia. Qed.
Lemma fsum_nonneg f : 0 <= fsum f.
Proof. induction f as [|x c IHc]; cbn [fsum]; [lia|]. pose proof (zlen_nonneg (q_data x)). lia. Qed.

(* 16: the frame header; 12: header and working counter of a datagram; 15: append refuses a datagram once the packet holds
   more than Packet_append_maxcount = 14 *)
Definition frame_ok (f : list rq) : Prop :=
  f <> [] /\ 16 + fsum f <= Packet_MAXSIZE /\ (length f <= 15)%nat.

Lemma fits_spec size cnt n : fits size cnt n = true <-> (size + n + 12 <= Packet_MAXSIZE /\ (cnt <= 14)%nat).
Proof. unfold fits, Packet_DATAGRAM_HEADER, Packet_DATAGRAM_TAIL, Packet_append_maxcount. lia. Qed.

Lemma fits_alone_spec r : fits_alone r = true <-> 16 + (zlen (q_data r) + 12) <= Packet_MAXSIZE.
Proof. unfold fits_alone. rewrite fits_spec. unfold Packet_PACKET_HEADER. lia. Qed.

(* `pack` ships the packet as soon as the queue is empty (its cases `tl = []`);
   the call on the empty queue would return the same: one step of the loop
   without those cases. *)
Lemma pack_cons r tl cur size : pack (r :: tl) cur size =
  let n := zlen (q_data r) in
  if fits size (length cur) n
  then pack tl (cur ++ [r]) (size + n + Packet_DATAGRAM_HEADER + Packet_DATAGRAM_TAIL)
  else match cur with
       | [] => let '(fs, bad) := pack tl [] Packet_PACKET_HEADER in (fs, r :: bad)
       | _ => if fits_alone r
              then let '(fs, bad) :=
                     pack tl [r] (Packet_PACKET_HEADER + n + Packet_DATAGRAM_HEADER + Packet_DATAGRAM_TAIL)
                   in (cur :: fs, bad)
              else let '(fs, bad) := pack tl [] Packet_PACKET_HEADER in (cur :: fs, r :: bad)
       end.
Proof.
  destruct tl; [|reflexivity]. cbn [pack].
  destruct (fits _ _ _); [now destruct cur|]. destruct cur; [reflexivity|]. now destruct (fits_alone r).
Qed.

(* the invariant of the packing loop: size is that of cur, and cur, unless it is
   still empty, is a frame within the limits *)
Lemma pack_spec : forall rs cur size fs bad,
  size = 16 + fsum cur -> (cur <> [] -> frame_ok cur) ->
  pack rs cur size = (fs, bad) ->
  concat fs = cur ++ filter fits_alone rs /\ bad = filter (fun r => negb (fits_alone r)) rs /\
  Forall frame_ok fs.
Proof.
  induction rs as [|r tl IH]; intros cur size fs bad Hs Hc H.
  - cbn [pack] in H. injection H as <- <-. cbn [filter]. rewrite app_nil_r.
    destruct cur; cbn [concat]; rewrite ?app_nil_r; repeat split; auto.
    constructor; [apply Hc; discriminate|constructor].
  - rewrite pack_cons in H. cbv zeta in H. cbn [filter].
    unfold Packet_PACKET_HEADER, Packet_DATAGRAM_HEADER, Packet_DATAGRAM_TAIL in H.
    destruct (fits size (length cur) (zlen (q_data r))) eqn:F.
    + (* appended to the current packet *)
      apply fits_spec in F as [F1 F2]. pose proof (fsum_nonneg cur). pose proof (zlen_nonneg (q_data r)).
      assert (Al : fits_alone r = true) by (apply fits_alone_spec; lia).
      rewrite Al. cbn [negb].
      apply IH in H as (C & B & Fo).
      * rewrite C, <- app_assoc. auto.
      * rewrite fsum_app. cbn [fsum]. lia.
      * intros _. unfold frame_ok. rewrite fsum_app, app_length. cbn [fsum length].
        split; [destruct cur; discriminate|lia].
    + destruct (fits_alone r) eqn:Al; cbn [negb].
      * (* the current packet is flushed and r starts a fresh one; cur is not
           empty, since on an empty packet fits is fits_alone *)
        destruct cur as [|c cur']; [subst size; change (fits_alone r = false) in F; congruence|].
        apply fits_alone_spec in Al.
        destruct (pack tl [r] _) as [fs1 bad1] eqn:P. injection H as <- <-.
        apply IH in P as (C & B & Fo).
        -- cbn [concat]. rewrite C. repeat split; auto. constructor; [apply Hc; discriminate|exact Fo].
        -- cbn [fsum]. lia.
        -- intros _. unfold frame_ok. cbn [fsum length]. split; [discriminate|lia].
      * (* r can never be sent; the current packet, if there is one, is flushed *)
        destruct (pack tl [] 16) as [fs1 bad1] eqn:P.
        apply IH in P as (C & B & Fo); [|reflexivity|congruence].
        destruct cur as [|c cur']; injection H as <- <-; cbn [concat]; rewrite C, B.
        -- auto.
        -- repeat split; auto. constructor; [apply Hc; discriminate|exact Fo].
Qed.

(* Packet.append looks only at the data of a datagram; the other fields are placeholders *)
Definition dg_of (r : rq) : dgram := {| d_cmd := 0; d_data := q_data r; d_wkc := 0; d_idx := 0; d_addr := [0; 0] |}.

Lemma frame_ok_appends f : forall p, p_size p + fsum f <= Packet_MAXSIZE ->
  (length (p_data p) + length f <= 15)%nat -> appends p (map dg_of f) <> None.
Proof.
  induction f as [|r f IH]; intros p Hm Hl; cbn [map appends fsum length] in *; [discriminate|].
  pose proof (fsum_nonneg f).
  destruct (append p (dg_of r)) as [[p' [a b]]|] eqn:Ea.
  - apply append_inv in Ea as (S1 & D1 & _). cbn [dg_of d_data] in S1.
    destruct (appends p' (map dg_of f)) as [[p2 l]|] eqn:Et; [discriminate|].
    contradict Et. apply IH; [lia|rewrite D1, app_length; cbn [length]; lia].
  - apply append_rejects in Ea. cbn [dg_of d_data] in Ea.
    unfold Packet_DATAGRAM_HEADER, Packet_DATAGRAM_TAIL, Packet_append_maxcount, zlen in *. lia.
Qed.
