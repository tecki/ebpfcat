From Verif Require Import Ecat.Fmmu Lib.ListX.

Definition free (u : used) (j : nat) : Prop := nth_error u j = Some None.

(* Fmmu.v has its own copy of the list update.  Lib.ListX is imported AFTER Ecat.Fmmu (here and in FmmuGroup_proofs.v) so
   that the unqualified set_at is the library's; Fmmu's is written Fmmu.set_at. *)
Lemma set_at_ListX {A} (l : list A) : forall n v, Fmmu.set_at n v l = set_at n v l.
Proof. induction l; intros [|n] v; cbn; congruence. Qed.

(* removing the k-th element, in the form the standard library reasons about *)
Lemma remove_nth_split {A} (l : list A) : forall k x, nth_error l k = Some x ->
  exists l1 l2, l = l1 ++ x :: l2 /\ remove_nth k l = l1 ++ l2.
Proof.
  induction l as [|a l IH]; intros [|k] x H; try discriminate; cbn in *.
  - injection H as ->. now exists [], l.
  - destruct (IH _ _ H) as (l1 & l2 & -> & ->). now exists (a :: l1), l2.
Qed.

Lemma index_none_spec l d : forall k, index_none l = Some k -> 0 <= k < zlen l /\ nth (Z.to_nat k) l d = None.
Proof.
  unfold zlen. induction l as [|[v|] l IH]; cbn [index_none length]; intros k H; [discriminate| |].
  - destruct (index_none l) as [k'|]; [|discriminate]. cbn [option_map] in H. replace k with (1 + k') by congruence.
    destruct (IH k' eq_refl) as [R N]. split; [lia|].
    replace (Z.to_nat (1 + k')) with (S (Z.to_nat k')) by lia. exact N.
  - injection H as <-. split; [lia|reflexivity].
Qed.

(* The search starts at slot 1 (outputs) or at the last slot (inputs), clipped to the table, and walks down to slot 0:
   the slice u[start::-1] is the first start+1 entries reversed, so its k-th entry is entry start-k of the table. *)
Lemma slot_free u w i : slot_index u w = Some i -> 0 <= i < zlen u /\ free u (Z.to_nat i).
Proof.
  unfold slot_index, rev_slice, start_of, free, ztake, zlen. set (n := Z.of_nat (length u)).
  set (start := if w then Z.min 1 (n - 1) else n - 1). intros H.
  (* Python's clipping of the start index changes nothing, and start = -1 for the empty table *)
  replace (if start <? 0 then start + n else Z.min start (n - 1)) with start in H
    by (destruct (Z.ltb_spec start 0); subst start; destruct w; lia).
  destruct (Z.ltb_spec start 0) as [|Hs]; [discriminate|].
  destruct (index_none _) as [k|] eqn:E; [|discriminate]. injection H as <-.
  assert (Hn : (Z.to_nat (start + 1) <= length u)%nat) by (subst start; destruct w; lia).
  apply (index_none_spec _ (Some 0)) in E. unfold zlen in E. rewrite rev_length, firstn_length_le in E by exact Hn.
  destruct E as [R N]. rewrite rev_nth, firstn_length_le, nth_firstn_lt in N by (rewrite ?firstn_length_le; lia).
  split; [lia|]. rewrite (nth_error_nth' _ (Some 0)), <- N by lia. do 2 f_equal. lia.
Qed.

Lemma py_set_nonneg {A} (u : list A) i v u' : 0 <= i ->
  py_set u i v = Some u' <-> i < zlen u /\ u' = set_at (Z.to_nat i) v u.
Proof.
  unfold py_set. intros Hi. destruct (Z.ltb_spec i 0); [lia|]. destruct (Z.leb_spec 0 i); [|lia].
  rewrite set_at_ListX. cbn [andb]. destruct (Z.ltb_spec i (zlen u)).
  - split; [intros [= <-]; auto|intros [_ ->]; reflexivity].
  - split; [discriminate|lia].
Qed.

Lemma enter_takes_free u w lg i u' : map_enter u w lg = Some (i, u') ->
  0 <= i < zlen u /\ free u (Z.to_nat i) /\ u' = set_at (Z.to_nat i) (Some lg) u.
Proof.
  unfold map_enter. destruct (slot_index u w) as [i0|] eqn:E; [|discriminate].
  destruct (slot_free _ _ _ E) as [R F].
  destruct (py_set u i0 (Some lg)) as [u0|] eqn:Ep; [|discriminate].
  cbn [option_map]. intros H; inversion H; subst. apply py_set_nonneg in Ep; [|lia]. tauto.
Qed.

Record Inv (s : st) : Prop := {
  inv_live : forall i lg, In (i, lg) (live s) ->
             0 <= i < zlen (tbl s) /\ nth_error (tbl s) (Z.to_nat i) = Some (Some lg);
  inv_nodup : NoDup (map fst (live s));
  inv_free : forall j, (j < length (tbl s))%nat -> ~ In (Z.of_nat j) (map fst (live s)) -> free (tbl s) j }.

Lemma inv_init n : Inv (init n).
Proof.
  constructor; cbn [init tbl live].
  - intros i lg [].
  - constructor.
  - intros j Hj _. rewrite repeat_length in Hj. now apply nth_error_repeat.
Qed.

Lemma step_inv s o : Inv s -> Inv (step s o).
Proof.
  intros [IL IN IF]. destruct o as [w lg|k]; cbn [step].
  - (* Map: the slot taken was free, so no live mapping holds it *)
    destruct (map_enter (tbl s) w lg) as [[i u']|] eqn:E; [|now constructor].
    apply enter_takes_free in E. destruct E as (Ri & Fi & ->). unfold zlen in *.
    assert (Hnot : ~ In i (map fst (live s))).
    { intros ([i' lg'] & <- & I)%in_map_iff. destruct (IL _ _ I) as [_ N].
      unfold free in Fi. cbn [fst] in Fi. congruence. }
    constructor; cbn [tbl live]; unfold zlen; rewrite ?set_at_length.
    + intros i' lg' [I|[[= <- <-]|[]]]%in_app_or.
      * destruct (IL _ _ I) as [R N]. split; [exact R|].
        rewrite nth_error_set_at_other; [exact N|]. intros E. apply Hnot.
        replace i with i' by lia. exact (in_map fst _ _ I).
      * split; [exact Ri|]. apply nth_error_set_at_same. lia.
    + rewrite map_app. apply (NoDup_Add (Add_app i _ [])). now rewrite app_nil_r.
    + intros j Hj Hn. rewrite map_app, in_app_iff in Hn. cbn [map fst In] in Hn.
      unfold free. rewrite nth_error_set_at_other by lia. apply IF; tauto.
  - (* Unmap of the k-th live mapping: no other live mapping has its slot *)
    destruct (nth_error (live s) k) as [[i lg]|] eqn:Ek; [|now constructor].
    destruct (map_exit (tbl s) i) as [u'|] eqn:Ep; [|now constructor].
    destruct (remove_nth_split _ _ _ Ek) as (l1 & l2 & El & ->). rewrite El in *. clear El Ek.
    destruct (IL i lg (in_elt _ _ _)) as [Ri _]. unfold zlen in *.
    apply py_set_nonneg in Ep; [|lia]. destruct Ep as [_ ->].
    rewrite map_app in IN, IF. apply NoDup_remove in IN. destruct IN as [N1 N2]. rewrite <- map_app in N1, N2.
    constructor; cbn [tbl live]; unfold zlen; rewrite ?set_at_length.
    + intros i' lg' I. destruct (IL i' lg') as [R N].
      { rewrite in_app_iff in *. cbn [In]. tauto. }
      split; [exact R|]. rewrite nth_error_set_at_other; [exact N|]. intros E. apply N2.
      replace i with i' by lia. exact (in_map fst _ _ I).
    + exact N1.
    + intros j Hj Hn. unfold free. destruct (Nat.eq_dec (Z.to_nat i) j) as [<-|Ne].
      * apply nth_error_set_at_same. lia.
      * rewrite nth_error_set_at_other by exact Ne. apply IF; [exact Hj|].
        rewrite map_app, in_app_iff in Hn. rewrite in_app_iff. cbn [map fst In]. intros [?|[?|?]]; [tauto|lia|tauto].
Qed.
