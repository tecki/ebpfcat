From Verif Require Import Lib.ListX Lib.Struct_proofs Ecat.Codec.

(* encoding: payload = struct encoding of the values, zeros for the trailing
   read-only format, then the raw data *)
Lemma encode_layout args d out : rt_out args d = Some out ->
  exists p, pack (fmts_of (removelast args)) (vals_of args) = Some p /\
            out = p ++ zeros (calcsize (trailing args)) ++ raw_bytes d /\
            length p = calcsize (fmts_of (removelast args)).
Proof.
  unfold rt_out. destruct (pack _ _) as [p|] eqn:E; [|discriminate].
  intros [= <-]. exists p. repeat split. exact (pack_length _ _ _ E).
Qed.

Lemma rt_out_length args d out : rt_out args d = Some out ->
  length out = (calcsize (rt_fmt args) + raw_len d)%nat.
Proof.
  intros (p & _ & -> & Lp)%encode_layout.
  unfold rt_fmt, raw_len. rewrite !app_length, zeros_length, calcsize_app, Lp. lia.
Qed.

(* rt_ret on a response split where the raw data begins: the fields are
   decoded from the first part, the second is handed back as it is *)
Lemma rt_ret_app args d a raw : length raw = raw_len d ->
  rt_ret args d (a ++ raw) =
    match d, args with
    | DNone, _ => option_map RFields (unpack (rt_fmt args) a)
    | _, [] => Some (RRaw (a ++ raw))
    | _, _ => option_map (fun vs => RFieldsRaw vs raw) (unpack (rt_fmt args) a)
    end.
Proof.
  intros Hr. unfold rt_ret. destruct d as [|k|l].
  1: destruct raw; [now rewrite app_nil_r|discriminate].
  all: destruct args; [reflexivity|].
  all: now rewrite app_length, Hr, Nat.add_sub, firstn_app_exact, skipn_app_exact.
Qed.
