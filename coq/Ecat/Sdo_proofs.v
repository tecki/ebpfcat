From Verif Require Import Ecat.Sdo.

Lemma zslice_length l a b : (a <= b)%nat -> (b <= length l)%nat -> length (zslice l a b) = (b - a)%nat.
Proof. intros. unfold zslice. rewrite firstn_length, skipn_length. lia. Qed.

Lemma firstn_zslice l a b : (a <= b)%nat -> firstn a l ++ zslice l a b = firstn b l.
Proof.
  intros H. unfold zslice. rewrite firstn_skipn_comm. replace (a + (b - a))%nat with b by lia.
  replace (firstn a l) with (firstn a (firstn b l)) by (rewrite firstn_firstn; f_equal; lia).
  apply firstn_skipn.
Qed.

Lemma pad7_length s : length (pad7 s) = Nat.max 7 (length s).
Proof. unfold pad7. rewrite app_length, repeat_length. lia. Qed.
Lemma pad7_firstn s : firstn (length s) (pad7 s) = s.
Proof. unfold pad7. apply firstn_app_exact. Qed.
Lemma pad7_long s : (7 <= length s)%nat -> pad7 s = s.
Proof. intros. unfold pad7. replace (7 - length s)%nat with O by lia. apply app_nil_r. Qed.

Definition is_toggle (t : Z) : Prop := t = 0 \/ t = 16.
Definition flip (t : Z) : Z := if t =? 0 then 16 else 0.
Lemma flip_toggle t : is_toggle t -> is_toggle (flip t).
Proof. intros [->| ->]; [right|left]; reflexivity. Qed.

(* decoding the segment command byte; the size field is 7 - n, and 0 from n = 7 on *)
Lemma seg_cmd_bits toggle last n : is_toggle toggle ->
  let cmd := seg_cmd toggle last n in
  (cmd / 16) mod 2 * 16 = toggle /\ Z.testbit cmd 0 = last /\ cmd / 32 = 0 /\
  Z.to_nat ((cmd / 2) mod 8) = (7 - n)%nat.
Proof.
  intros Ht cmd. subst cmd. unfold seg_cmd.
  replace (if (n <? 7)%nat then 2 * Z.of_nat (7 - n) else 0) with (2 * Z.of_nat (7 - n))
    by (destruct (Nat.ltb_spec n 7); lia).
  rewrite Z.bit0_odd, !Z.odd_add, Z.odd_mul.
  destruct Ht as [-> | ->], last; (split; [lia|split; [reflexivity|split; lia]]).
Qed.

(* the part of a (possibly padded) segment that carries data *)
Lemma strip_pad seg :
  (if Nat.eqb (length (pad7 seg)) 7 then firstn (7 - (7 - length seg)) (pad7 seg) else pad7 seg) = seg.
Proof.
  destruct (Nat.eqb_spec (length (pad7 seg)) 7) as [E|E]; rewrite pad7_length in E.
  - replace (7 - (7 - length seg))%nat with (length seg) by lia. apply pad7_firstn.
  - apply pad7_long. lia.
Qed.

(* a segment request as the server takes it apart: toggle and last flag from
   the command byte, the slice from the payload (ul_collect_msg: the same for
   a segment response and the client) *)
Lemma srv_dl_seg_msg total buf toggle hdr last seg : length hdr = 2%nat -> is_toggle toggle ->
  srv_dl_seg {| d_total := total; d_buf := buf; d_toggle := toggle |}
             (hdr ++ [seg_cmd toggle last (length seg)] ++ pad7 seg) =
  if last then (if Nat.eqb (length (buf ++ seg)) total then Some (inr (buf ++ seg)) else None)
  else Some (inl {| d_total := total; d_buf := buf ++ seg; d_toggle := flip toggle |}).
Proof.
  intros Hh Ht. destruct hdr as [|a [|b [|]]]; try discriminate Hh.
  destruct (seg_cmd_bits toggle last (length seg) Ht) as (T & L & _ & P).
  unfold srv_dl_seg. cbn [app nth skipn d_total d_buf d_toggle].
  rewrite T, Z.eqb_refl, L, P, strip_pad, pad7_length. cbn [negb].
  destruct (Nat.ltb_spec (Nat.max 7 (length seg)) 7); [lia|reflexivity].
Qed.

Lemma dl_segments_done fuel room data stop toggle : (length data <= stop)%nat ->
  dl_segments fuel room data stop toggle = [].
Proof.
  intros H. destruct fuel; cbn [dl_segments]; [reflexivity|].
  destruct (Nat.ltb_spec stop (length data)); [lia|reflexivity].
Qed.

Lemma dl_run_ok room data : (0 < room)%nat ->
  forall fuel stop toggle, is_toggle toggle -> (stop < length data)%nat -> (length data - stop <= fuel)%nat ->
  srv_dl_run {| d_total := length data; d_buf := firstn stop data; d_toggle := toggle |}
             (dl_segments fuel room data stop toggle) = Some data.
Proof.
  intros Hr. induction fuel as [|k IH]; intros stop toggle Ht Hs Hf; [lia|].
  cbn [dl_segments]. destruct (Nat.ltb_spec stop (length data)); [|lia].
  set (stop' := Nat.min (length data) (stop + room)).
  cbn [srv_dl_run]. rewrite srv_dl_seg_msg; [|reflexivity|exact Ht].
  rewrite firstn_zslice by (subst stop'; lia).
  destruct (Nat.eqb_spec stop' (length data)) as [E|E].
  - (* last segment *)
    rewrite E, firstn_all, Nat.eqb_refl. now rewrite dl_segments_done.
  - apply IH; [apply flip_toggle, Ht|subst stop'; lia|subst stop'; lia].
Qed.

(* the initiate-download message of a normal transfer as the server sees it *)
Lemma dl_init_normal cmdb index s data stop :
  Z.testbit cmdb 1 = false -> Z.testbit cmdb 0 = true ->
  Z.of_nat (length data) < 4294967296 -> (stop <= length data)%nat ->
  srv_dl_init (coe_req ++ [cmdb] ++ le_bytes 2 index ++ [s] ++ le_bytes 4 (Z.of_nat (length data)) ++ firstn stop data)
  = if Nat.eqb stop (length data) then Some (inr data)
    else Some (inl {| d_total := length data; d_buf := firstn stop data; d_toggle := 0 |}).
Proof.
  intros Hc1 Hc0 Hn Hs. unfold srv_dl_init.
  set (p := coe_req ++ _).
  change (length p <? 10)%nat with false. change (nth 2 p 0) with cmdb.
  change (firstn 4 (skipn 6 p)) with (le_bytes 4 (Z.of_nat (length data))).
  change (skipn 10 p) with (firstn stop data).
  rewrite Hc1, Hc0, le_val_le_bytes_small, Nat2Z.id, firstn_length, Nat.min_l;
    [|exact Hs|split; [apply Nat2Z.is_nonneg|exact Hn]].
  cbn [negb]. destruct (Nat.ltb_spec (length data) stop); [lia|].
  destruct (Nat.eqb_spec stop (length data)) as [E|E]; [|reflexivity].
  now rewrite E, firstn_all.
Qed.

Lemma dl_normal_ok mbx cmdb index s data : (10 <= mbx)%nat ->
  Z.testbit cmdb 1 = false -> Z.testbit cmdb 0 = true -> Z.of_nat (length data) < 4294967296 ->
  let stop := Nat.min (length data) (mbx - 16) in
  srv_download ((coe_req ++ [cmdb] ++ le_bytes 2 index ++ [s] ++ le_bytes 4 (Z.of_nat (length data))
                 ++ firstn stop data)
                :: dl_segments (length data) (mbx - 9) data stop 0) = Some data.
Proof.
  intros Hm Hc1 Hc0 Hn stop. cbn [srv_download].
  rewrite (dl_init_normal cmdb index s data stop Hc1 Hc0 Hn) by (subst stop; lia).
  destruct (Nat.eqb_spec stop (length data)) as [E|E].
  - rewrite dl_segments_done by lia. reflexivity.
  - apply dl_run_ok; [lia|left; reflexivity|subst stop; lia|lia].
Qed.

(* t, flip t, t, ... (k terms) *)
Fixpoint alt (t : Z) (k : nat) : list Z := match k with O => [] | S k' => t :: alt (flip t) k' end.

Lemma ul_collect_msg hdr toggle last seg tl size acc toggles :
  length hdr = 2%nat -> is_toggle toggle -> (length acc < size)%nat ->
  ul_collect ((hdr ++ [seg_cmd toggle last (length seg)] ++ pad7 seg) :: tl) size acc toggle toggles =
  if last then (if Nat.eqb (length (acc ++ seg)) size then Some (acc ++ seg, toggles ++ [toggle]) else None)
  else ul_collect tl size (acc ++ seg) (flip toggle) (toggles ++ [toggle]).
Proof.
  intros Hh Ht Ha. destruct hdr as [|a [|b [|]]]; try discriminate Hh.
  destruct (seg_cmd_bits toggle last (length seg) Ht) as (_ & L & H & P).
  cbn [ul_collect app nth skipn]. destruct (Nat.leb_spec size (length acc)); [lia|].
  rewrite H, L, P, strip_pad. reflexivity.
Qed.

Lemma ul_collect_ok room data : (0 < room)%nat ->
  forall fuel pos toggle toggles, is_toggle toggle ->
  (pos < length data)%nat -> (length data - pos <= fuel)%nat ->
  exists k, ul_collect (ul_segments fuel room data pos toggle) (length data) (firstn pos data) toggle toggles
            = Some (data, toggles ++ alt toggle k).
Proof.
  intros Hr. induction fuel as [|k IH]; intros pos toggle toggles Ht Hp Hf; [lia|].
  cbn [ul_segments]. set (stop := Nat.min (length data) (pos + room)).
  assert (Ls : length (zslice data pos stop) = (stop - pos)%nat) by (apply zslice_length; subst stop; lia).
  rewrite ul_collect_msg; [|reflexivity|exact Ht|rewrite firstn_length; lia].
  rewrite firstn_zslice, Ls by (subst stop; lia).
  destruct (Nat.leb_spec (length data) (pos + (stop - pos))) as [Last|More].
  - exists 1%nat. replace stop with (length data) by (subst stop; lia).
    now rewrite firstn_all, Nat.eqb_refl.
  - replace stop with (pos + room)%nat by (subst stop; lia).
    destruct (IH (pos + room)%nat (flip toggle) (toggles ++ [toggle])) as [n En]; [now apply flip_toggle|lia|lia|].
    exists (S n). fold (flip toggle). rewrite En. cbn [alt]. now rewrite <- app_assoc.
Qed.

(* the initiate response as sdo_read takes it apart *)
Lemma sdo_read_init cmd index s body tl : 0 <= index < 65536 ->
  sdo_read ((coe_res ++ [cmd] ++ le_bytes 2 index ++ [s] ++ body) :: tl) index =
  if Z.testbit cmd 1 then Some (firstn (10 - Z.to_nat ((cmd / 4) mod 4) - 6) body, [])
  else ul_collect tl (Z.to_nat (le_val (firstn 4 body))) (skipn 4 body) 0 [].
Proof.
  intros Hi. unfold sdo_read.
  change (firstn 2 (skipn 3 (coe_res ++ _))) with (le_bytes 2 index).
  rewrite le_val_le_bytes_small, (Z.eqb_refl index) by exact Hi. reflexivity.
Qed.

(* every message fits into the mailbox (6-byte mailbox header included) *)
Lemma expedited_fits mbx hdr cmd index s data : length hdr = 2%nat -> (16 <= mbx)%nat -> (length data <= 4)%nat ->
  Forall (fun p => (6 + length p <= mbx)%nat)
    [hdr ++ [cmd] ++ le_bytes 2 index ++ [s] ++ data ++ repeat 0 (4 - length data)].
Proof.
  intros Hh Hm Hd. constructor; [|constructor].
  rewrite !app_length, repeat_length, le_bytes_length, Hh. cbn [length]. lia.
Qed.

Lemma normal_fits mbx hdr cmd index s n k data segs : length hdr = 2%nat -> (16 <= mbx)%nat -> (k <= mbx - 16)%nat ->
  Forall (fun p => (6 + length p <= mbx)%nat) segs ->
  Forall (fun p => (6 + length p <= mbx)%nat)
    ((hdr ++ [cmd] ++ le_bytes 2 index ++ [s] ++ le_bytes 4 n ++ firstn k data) :: segs).
Proof.
  intros Hh Hm Hk Hsegs. constructor; [|exact Hsegs].
  rewrite !app_length, firstn_length, !le_bytes_length, Hh. cbn [length]. lia.
Qed.

Lemma seg_msg_fits mbx hdr cmd data a b : length hdr = 2%nat -> (16 <= mbx)%nat -> (b <= a + (mbx - 9))%nat ->
  (6 + length (hdr ++ [cmd] ++ pad7 (zslice data a b)) <= mbx)%nat.
Proof.
  intros Hh Hm Hb. rewrite !app_length, pad7_length, Hh. unfold zslice. rewrite firstn_length. cbn [length]. lia.
Qed.

Lemma dl_segments_fit mbx data : (16 <= mbx)%nat -> forall fuel stop toggle,
  Forall (fun p => (6 + length p <= mbx)%nat) (dl_segments fuel (mbx - 9) data stop toggle).
Proof.
  intros Hm. induction fuel as [|k IH]; intros stop toggle; cbn [dl_segments]; [constructor|].
  destruct (stop <? length data)%nat; constructor; [|apply IH].
  apply seg_msg_fits; [reflexivity|exact Hm|lia].
Qed.

Theorem download_fits mbx data index sub : (16 <= mbx)%nat ->
  Forall (fun p => (6 + length p <= mbx)%nat) (dl_requests mbx data index sub).
Proof.
  intros Hm. unfold dl_requests.
  destruct sub as [s|]; [destruct ((0 <? length data)%nat && (length data <=? 4)%nat) eqn:E|].
  - apply expedited_fits; [reflexivity|lia|lia].
  - apply normal_fits; [reflexivity|lia|lia|apply dl_segments_fit; lia].
  - apply normal_fits; [reflexivity|lia|lia|apply dl_segments_fit; lia].
Qed.

Lemma ul_segments_fit mbx data : (16 <= mbx)%nat -> forall fuel pos toggle,
  Forall (fun p => (6 + length p <= mbx)%nat) (ul_segments fuel (mbx - 9) data pos toggle).
Proof.
  intros Hm. induction fuel as [|k IH]; intros pos toggle; cbn [ul_segments]; constructor.
  - apply seg_msg_fits; [reflexivity|exact Hm|lia].
  - destruct (_ <=? _)%nat; [constructor|apply IH].
Qed.

Theorem upload_fits mbx data index sub ca : (16 <= mbx)%nat ->
  Forall (fun p => (6 + length p <= mbx)%nat) (ul_responses mbx data index sub ca).
Proof.
  intros Hm. unfold ul_responses.
  destruct (((0 <? length data)%nat && (length data <=? 4)%nat) && negb ca) eqn:E.
  - apply expedited_fits; [reflexivity|lia|lia].
  - apply normal_fits; [reflexivity|lia|lia|].
    destruct (mbx - 16 <? length data)%nat; [apply ul_segments_fit; lia|constructor].
Qed.
