From Verif Require Import Lib.Bits Ecat.Dispatch.

(* The index written is the low byte of the new counter.  A frame goes straight back to the bus only when
   the counter is odd and the index even, and leaves the counter even; a frame handed to the group's
   program leaves the counter, and so its index, odd; a frame for user space changes nothing. *)
Lemma dispatch_core_spec c i :
  let '(c', idx, kd) := dispatch_core c i in
  match kd with
  | KTx => c mod 2 = 1 /\ i mod 2 = 0 /\ c' mod 2 = 0 /\ 0 <= c' /\ idx = Some (c' mod 256)
  | KTail => c' mod 2 = 1 /\ 0 <= c' /\ idx = Some (c' mod 256)
  | KUser => c' = c /\ idx = None
  end.
Proof.
  unfold dispatch_core. rewrite land_1_r. pose proof (Zmod_odd (c mod 256)) as B.
  (* reduction to 8 or 32 bits keeps the parity, which lia sees *)
  destruct (i =? c mod 256); cbv beta iota.
  - repeat split; lia.
  - destruct (_ || _) eqn:Near; [|auto].
    (* for KTx, Near and the odd counter make i even *)
    destruct (Z.odd (c mod 256)); cbv beta iota; repeat split; lia.
Qed.

(* histories: the frames of one group in flight, each with its index and whether its write datagrams are enabled *)
Inductive event := Inject | Lose (k : nat) | Deliver (k : nat).
Record gstate := { counter : Z; flight : list (Z * bool) }.

Definition remove_nth {A} (k : nat) (l : list A) : list A := firstn k l ++ skipn (S k) l.

(* returns the new state and, for a delivery, what happened to the frame and whether it was enabled *)
Definition gstep (s : gstate) (e : event) : gstate * option (kind * bool) :=
  match e with
  | Inject => ({| counter := counter s; flight := (0, false) :: flight s |}, None)      (* user space sends a sterile frame, index 0 *)
  | Lose k => ({| counter := counter s; flight := remove_nth k (flight s) |}, None)
  | Deliver k =>
      match nth_error (flight s) k with
      | None => (s, None)
      | Some (i, en) =>
          let '(c', idx, kd) := dispatch_core (counter s) i in
          let rest := remove_nth k (flight s) in
          match kd, idx with
          | KTail, Some v => ({| counter := c'; flight := (v, true) :: rest |}, Some (KTail, en))    (* the program runs and enables the writes *)
          | KTx, Some v => ({| counter := c'; flight := (v, en) :: rest |}, Some (KTx, en))
          | _, _ => ({| counter := c'; flight := rest |}, Some (KUser, en))                           (* leaves to user space *)
          end
      end
  end.

(* an enabled frame in flight has an odd index: it was stamped by a pass through the group's program *)
Definition ginv (s : gstate) : Prop :=
  0 <= counter s /\ Forall (fun f => 0 <= fst f < 256 /\ (snd f = true -> fst f mod 2 = 1)) (flight s).

Lemma remove_nth_forall {A} (P : A -> Prop) k l : Forall P l -> Forall P (remove_nth k l).
Proof. intros H. apply Forall_app. split; [apply Forall_firstn | apply Forall_skipn]; exact H. Qed.

(* a step keeps the invariant, and under it only a frame that is not enabled goes straight back *)
Lemma gstep_ginv s e : ginv s ->
  ginv (fst (gstep s e)) /\ forall en, snd (gstep s e) = Some (KTx, en) -> en = false.
Proof.
  intros [Hc Hf]. destruct e as [|k|k]; cbn [gstep].
  - split; [|discriminate]. split; [exact Hc|]. constructor; [cbn; split; [lia|discriminate]|exact Hf].
  - split; [|discriminate]. split; [exact Hc|]. apply remove_nth_forall, Hf.
  - destruct (nth_error (flight s) k) as [[i en]|] eqn:E; [|split; [split; assumption|discriminate]].
    pose proof (remove_nth_forall _ k _ Hf) as Hr.
    rewrite Forall_forall in Hf. destruct (Hf _ (nth_error_In _ _ E)) as [Hi Hen].
    cbn [fst snd] in Hi, Hen.
    pose proof (dispatch_core_spec (counter s) i) as D.
    destruct (dispatch_core (counter s) i) as [[c' idx] []].
    + (* straight back: the index was even, so the frame was not enabled, and it stays so *)
      destruct D as (_ & Ei & _ & Hc' & ->). destruct en; [lia|].
      split; [|intros ? [= <-]; reflexivity]. split; [exact Hc'|]. constructor; [|exact Hr].
      cbn. split; [lia|discriminate].
    + (* to the program: enabled, with an odd index *)
      destruct D as (Oc' & Hc' & ->). split; [|discriminate].
      split; [exact Hc'|]. constructor; [|exact Hr]. cbn. split; [lia|]. intros _. lia.
    + destruct D as [-> ->]. split; [|discriminate]. split; assumption.
Qed.

(* In EVERY history (any number of frames in flight, deliveries in any order, losses, injections): a frame
   that goes back to the bus without the group's program has no enabled write datagrams *)
Theorem tx_never_enabled es s e en : ginv s ->
  snd (gstep (fold_left (fun st e => fst (gstep st e)) es s) e) = Some (KTx, en) -> en = false.
Proof.
  intros H. apply gstep_ginv. apply fold_left_inv; [|exact H]. intros st e'. apply gstep_ginv.
Qed.

Lemma byte_set_other l k j v : j <> k -> byte_at (set_byte l k v) j = byte_at l j.
Proof. intros H. apply nth_set_at_other. auto. Qed.
Lemma byte_set_same l k v : (k < length l)%nat -> byte_at (set_byte l k v) k = v mod 256.
Proof. apply nth_set_at_same. Qed.
Lemma set_byte_length l k v : length (set_byte l k v) = length l.
Proof. apply set_at_length. Qed.

Lemma to_user_other f j : j <> ETHERTYPE_POS -> j <> S ETHERTYPE_POS -> byte_at (to_user f) j = byte_at f j.
Proof. intros H1 H2. unfold to_user. now rewrite !byte_set_other. Qed.
Lemma to_user_ethertype f : (S ETHERTYPE_POS < length f)%nat ->
  byte_at (to_user f) ETHERTYPE_POS = byte_at f (S DATA0) mod 256 /\
  byte_at (to_user f) (S ETHERTYPE_POS) = byte_at f DATA0 mod 256.
Proof.
  intros L. unfold to_user. split.
  - rewrite byte_set_other by auto. apply byte_set_same. lia.
  - apply byte_set_same. rewrite set_byte_length. exact L.
Qed.

(* The frame that leaves is the frame that came, possibly with a new index (f1), and with the ethertype
   rewritten exactly when a group's frame goes to user space; a frame is only handed to the program of its
   own group, if that is registered, and never dropped. *)
Lemma dispatch_cases reg f m :
  let '(f', _, a) := dispatch reg f m in
  exists f1, length f1 = length f /\ (forall j, j <> INDEX0 -> byte_at f1 j = byte_at f j) /\
  match a with
  | ATx => f' = f1
  | ARun g => f' = f1 /\ reg g = true /\ g = u32le f ADDR0
  | APass => f' = f1 /\ is_group_frame f = false \/ f' = to_user f1 /\ is_group_frame f = true
  | ADrop => False
  end.
Proof.
  unfold dispatch. destruct (is_group_frame f); cbn [negb]; [|exists f; auto].
  destruct (MAX_PROGS <=? u32le f ADDR0); [exists f; auto|].
  destruct (dispatch_core _ _) as [[c' idx] kd].
  set (f1 := match idx with Some v => set_byte f INDEX0 v | None => f end).
  assert (Stamped : length f1 = length f /\ forall j, j <> INDEX0 -> byte_at f1 j = byte_at f j).
  { subst f1. destruct idx; [|auto]. split; [apply set_byte_length|]. intros j Hj. apply byte_set_other, Hj. }
  destruct kd; [exists f1; tauto| |exists f; auto].
  destruct (reg _) eqn:R; exists f1; [|tauto]. destruct Stamped. repeat split; assumption || reflexivity.
Qed.

(* The frames of a group whose program is not registered (other groups may be) go back to the bus or reach user space,
   with the ethertype of the identification datagram. *)
Theorem unregistered_to_user reg f m f' m' a : is_group_frame f = true -> reg (u32le f ADDR0) = false ->
  Forall (fun b => 0 <= b < 256) f -> dispatch reg f m = (f', m', a) ->
  a = ATx \/ a = APass /\ byte_at f' ETHERTYPE_POS = byte_at f (S DATA0) /\ byte_at f' (S ETHERTYPE_POS) = byte_at f DATA0.
Proof.
  intros G R B D. pose proof (dispatch_cases reg f m) as H. rewrite D in H.
  destruct H as (f1 & L1 & E & H).
  destruct a as [| |g|]; [left; reflexivity| |destruct H as (_ & H & ->); congruence|destruct H].
  right. split; [reflexivity|]. destruct H as [[_ H]|[-> _]]; [congruence|].
  assert (L : (30 < length f)%nat) by (unfold is_group_frame, zlen in G; lia).
  destruct (to_user_ethertype f1) as [-> ->]; [unfold ETHERTYPE_POS; lia|].
  (* bytes 26 and 27 of f1 are those of f, which are below 256 *)
  rewrite !E by discriminate. rewrite Forall_nth in B. unfold byte_at, DATA0.
  split; apply Z.mod_small, B; lia.
Qed.

(* the bytes SterilePacket.activate writes: command byte and working counter of every write datagram;
   vocabulary of C21_activate_frame (Props/C21.v) *)
Fixpoint touched (l : list otf) : list nat :=
  match l with [] => [] | (start, wkc, _, _) :: tl => (start + 14)%nat :: (wkc + 14)%nat :: (wkc + 15)%nat :: touched tl end.
