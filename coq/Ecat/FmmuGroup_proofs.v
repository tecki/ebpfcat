(* Lib.ListX last: set_at is the library's (see Fmmu_proofs.v) *)
From Verif Require Import Ecat.Fmmu_proofs Ecat.FmmuGroup Lib.ListX.

Lemma exit_after_enter u w lg i u1 : map_enter u w lg = Some (i, u1) -> map_exit u1 i = Some u.
Proof.
  intros (R & F & ->)%enter_takes_free. apply py_set_nonneg; [lia|].
  unfold zlen in *. rewrite set_at_length, set_at_set_at. split; [lia|]. symmetry. apply set_at_id, F.
Qed.

(* The group-level steps are sequences of terminal-level steps.  After any number of them every slot handed
   out was free at the start and differs from the others, and the table is unchanged elsewhere; that the slots
   handed out are no longer free is what lets the next step go through. *)
Definition took (u : used) (sl : list Z) (u' : used) : Prop :=
  length u' = length u /\
  (forall i, In i sl -> 0 <= i < zlen u /\ free u (Z.to_nat i)) /\
  (forall j, ~ In (Z.of_nat j) sl -> nth_error u' j = nth_error u j) /\
  NoDup sl /\
  (forall i, In i sl -> ~ free u' (Z.to_nat i)).

Lemma took_nil u : took u [] u.
Proof. repeat split; try easy. constructor. Qed.

Lemma took_snoc u sl u1 w lg i u2 : took u sl u1 -> map_enter u1 w lg = Some (i, u2) -> took u (sl ++ [i]) u2.
Proof.
  intros (L & F & O & N & B) (R & Fi & ->)%enter_takes_free. unfold zlen in *. rewrite L in R.
  assert (Hi : ~ In i sl) by (intros I; exact (B i I Fi)).
  split; [now rewrite set_at_length|]. split; [|split; [|split]].
  - intros k [I|[<-|[]]]%in_app_or; [now apply F|]. split; [exact R|].
    unfold free. rewrite <- O by now rewrite Z2Nat.id. exact Fi.
  - intros j Hj. rewrite in_app_iff in Hj. cbn [In] in Hj.
    rewrite nth_error_set_at_other by lia. apply O. tauto.
  - apply (NoDup_Add (Add_app i sl [])). now rewrite app_nil_r.
  - unfold free. intros k [I|[<-|[]]]%in_app_or.
    + rewrite nth_error_set_at_other by (intros E; apply Hi; destruct (F k I); now replace i with k by lia).
      now apply B.
    + rewrite nth_error_set_at_same by lia. discriminate.
Qed.

Lemma group_enter_took u out_ inp sl u' : group_enter u out_ inp = Some (sl, u') -> took u sl u'.
Proof.
  unfold group_enter. intros H.
  destruct (match out_ with Some _ => _ | None => _ end) as [[sl1 u1]|] eqn:E1 in H; [|discriminate].
  assert (T1 : took u sl1 u1).
  { destruct out_ as [lg|]; [|injection E1 as <- <-; apply took_nil].
    destruct (map_enter u true lg) as [[i u0]|] eqn:E; inversion E1; subst.
    exact (took_snoc _ _ _ _ _ _ _ (took_nil u) E). }
  destruct inp as [lg|]; [|injection H as <- <-; exact T1].
  destruct (map_enter u1 false lg) as [[i u2]|] eqn:E; inversion H; subst. exact (took_snoc _ _ _ _ _ _ _ T1 E).
Qed.
