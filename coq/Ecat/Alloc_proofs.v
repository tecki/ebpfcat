(* Regions are kept symbolic while a group is allocated, (base, size) with the base a frame position or an offset into
   the input / output image: `inv st rs` says that the regions handed out so far fit into the sizes of st and are apart,
   and a step that only appends at the current sizes keeps it (inv_snoc).  inv_adisj then places the images behind the
   direct datagrams and turns the symbolic regions into intervals of the frame.  The literals are Frame.v's: 16 the frame
   header (length word and identification datagram), 10 a datagram's header, 12 header and working counter together. *)
From Verif Require Import Lib.ListX Ecat.Frame_proofs Ecat.Alloc.

Definition wf_term (t : term) : Prop :=
  0 <= t_in t /\ 0 <= t_out t /\ match t_kind t with KAero a b => 0 < a /\ 0 < b | _ => True end.

Definition opt_list {A} (o : option A) : list A := match o with Some a => [a] | None => [] end.

(* symbolic regions of one terminal: (base, size) *)
Definition regs_of (t : term) (b : option base * option base) : list (base * Z) :=
  map (fun x => (x, in_region_size t)) (opt_list (fst b)) ++
  map (fun x => (x, out_region_size t)) (opt_list (snd b)).

Fixpoint all_regs (ts : list term) (bs : list (option base * option base)) : list (base * Z) :=
  match ts, bs with
  | t :: ts', b :: bs' => regs_of t b ++ all_regs ts' bs'
  | _, _ => []
  end.

Definition final_bound (in_pos fin fout : Z) (rg : base * Z) : Prop :=
  0 < snd rg /\
  match fst rg with
  | BNo a => 16 <= a /\ a + 12 + snd rg <= in_pos
  | BIn off => 0 <= off /\ off + snd rg <= fin
  | BOut off => 0 <= off /\ off + snd rg <= fout
  end.

(* what the proofs need of an allocation state are its three sizes: of the frame, of the input image, of the
   output image *)
Definition psize (st : astate) : Z := p_size (sp (a_pk st)).

Definition wf_st (st : astate) : Prop :=
  16 <= psize st <= Packet_MAXSIZE /\ 0 <= fin_size st /\ 0 <= fout_size st.

(* a direct region lies in a datagram of the frame so far, an FMMU region in the input / output image so far *)
Definition bounded (st : astate) : base * Z -> Prop := final_bound (psize st) (fin_size st) (fout_size st).

Definition sdisj (r1 r2 : base * Z) : Prop :=
  match fst r1, fst r2 with
  | BNo a, BNo b => a + snd r1 <= b \/ b + snd r2 <= a
  | BIn a, BIn b => a + snd r1 <= b \/ b + snd r2 <= a
  | BOut a, BOut b => a + snd r1 <= b \/ b + snd r2 <= a
  | _, _ => True
  end.

(* the regions handed out so far fit into st and are apart from each other *)
Definition inv (st : astate) (rs : list (base * Z)) : Prop :=
  wf_st st /\ Forall (bounded st) rs /\ ForallOrdPairs sdisj rs.

Lemma inv_init : inv init_astate [].
Proof. split; [cbv; intuition discriminate|split; constructor]. Qed.

(* The step: no size shrinks, and the new region r starts where the size it is measured in stood and ends inside the new
   size.  So r is apart from everything that fitted into the old sizes. *)
Lemma inv_snoc st st' rs r : inv st rs -> wf_st st' ->
  psize st <= psize st' -> fin_size st <= fin_size st' -> fout_size st <= fout_size st' -> 0 < snd r ->
  match fst r with
  | BNo a => a = psize st /\ a + 12 + snd r <= psize st'
  | BIn off => off = fin_size st /\ off + snd r <= fin_size st'
  | BOut off => off = fout_size st /\ off + snd r <= fout_size st'
  end -> inv st' (rs ++ [r]).
Proof.
  intros (W & B & D) W' Mp Mi Mo Hn Hr. split; [exact W'|].
  unfold wf_st in W, W'. destruct r as [b n]. cbn [fst snd] in *. split.
  - apply Forall_app. split; [|constructor; [|constructor]].
    + eapply Forall_impl; [|exact B]. intros [[a|a|a] m]; unfold bounded, final_bound; cbn [fst snd]; lia.
    + unfold bounded, final_bound. destruct b; cbn [fst snd]; lia.
  - apply FOP_app; [exact D|repeat constructor|]. intros [b0 n0] B0. rewrite Forall_forall in B. apply B in B0.
    constructor; [|constructor]. unfold bounded, final_bound, sdisj in *. destruct b, b0; cbn [fst snd] in *; auto; lia.
Qed.

(* the three ways in which a terminal gets a region *)
Lemma inv_direct st rs pk n : inv st rs -> 0 < n -> psize st + 12 + n <= p_size (sp pk) <= Packet_MAXSIZE ->
  inv (with_pk st pk) (rs ++ [(BNo (psize st), n)]).
Proof. intros I Hn Hp. pose proof (proj1 I) as W. apply (inv_snoc st _ _ _ I); unfold wf_st, psize in *; cbn; lia. Qed.

Lemma inv_fin st rs pk n c : inv st rs -> 0 < n -> psize st <= p_size (sp pk) <= Packet_MAXSIZE ->
  inv {| a_pk := pk; fin_size := fin_size st + n; fin_count := c;
         fout_size := fout_size st; fout_count := fout_count st |} (rs ++ [(BIn (fin_size st), n)]).
Proof. intros I Hn Hp. pose proof (proj1 I) as W. apply (inv_snoc st _ _ _ I); unfold wf_st, psize in *; cbn; lia. Qed.

Lemma inv_fout st rs n c : inv st rs -> 0 < n ->
  inv {| a_pk := a_pk st; fin_size := fin_size st; fin_count := fin_count st;
         fout_size := fout_size st + n; fout_count := c |} (rs ++ [(BOut (fout_size st), n)]).
Proof. intros I Hn. pose proof (proj1 I) as W. apply (inv_snoc st _ _ _ I); unfold wf_st, psize in *; cbn; lia. Qed.

Lemma s_append_size (writer : bool) pk cmd data wkc addr pk' :
  (if writer then s_append_writer pk (dg cmd data wkc addr) else s_append pk (dg cmd data wkc addr)) = Some pk' ->
  p_size (sp pk') = p_size (sp pk) + 12 + zlen data /\ p_size (sp pk') <= Packet_MAXSIZE.
Proof. intros [[[a b] E%append_inv] _]%s_append_inv. cbn [dg d_data] in E. lia. Qed.

Lemma truthy_pos z : 0 <= z -> truthy z = true -> 0 < z.
Proof. unfold truthy. intros. destruct (Z.eqb_spec z 0); [discriminate|lia]. Qed.

(* one terminal: its input part, then its output part; each does nothing or is one of the three ways above *)
Lemma alloc_term_inv st t st' b rs : wf_term t -> inv st rs -> alloc_term st t = Some (st', b) ->
  inv st' (rs ++ regs_of t b).
Proof.
  intros (Hi & Ho & Hk) I H. unfold alloc_term in H. unfold regs_of, in_region_size, out_region_size.
  assert (Po : t_rw t && truthy (t_out t) = true -> 0 < t_out t).
  { intros [_ T]%andb_prop. now apply truthy_pos. }
  destruct (t_kind t) as [| |ai ao].
  - destruct (if truthy (t_in t) then _ else _) as [st1 bi] eqn:E1 in H.
    assert (I1 : inv st1 (rs ++ map (fun x => (x, t_in t)) (opt_list bi))).
    { destruct (truthy (t_in t)) eqn:Ti; inversion E1; subst; [|now rewrite app_nil_r].
      apply inv_fin; [exact I|now apply truthy_pos|destruct I as [W _]; unfold wf_st, psize in *; lia]. }
    destruct (t_rw t && truthy (t_out t)) eqn:To; inversion H; subst; cbn [fst snd]; rewrite app_assoc.
    + apply inv_fout; [exact I1|exact (Po eq_refl)].
    + now rewrite app_nil_r.
  - destruct (if truthy (t_in t) then _ else _) as [[st1 bi]|] eqn:E1 in H; [|discriminate].
    assert (I1 : inv st1 (rs ++ map (fun x => (x, t_in t)) (opt_list bi))).
    { destruct (truthy (t_in t)) eqn:Ti; [|inversion E1; subst; now rewrite app_nil_r].
      destruct (s_append _ _) as [pk|] eqn:Ea in E1; inversion E1; subst.
      apply (s_append_size false) in Ea. rewrite zlen_zeros in Ea by exact Hi.
      apply inv_direct; [exact I|now apply truthy_pos|unfold psize; lia]. }
    destruct (t_rw t && truthy (t_out t)) eqn:To.
    + destruct (s_append_writer _ _) as [pk|] eqn:Ea in H; inversion H; subst; cbn [fst snd]; rewrite app_assoc.
      apply (s_append_size true) in Ea. rewrite zlen_zeros in Ea by exact Ho.
      apply inv_direct; [exact I1|exact (Po eq_refl)|unfold psize; lia].
    + inversion H; subst. cbn [fst snd]. now rewrite app_assoc, app_nil_r.
  - (* Aerotech-style terminal: the input takes ai bytes of the FMMU image and adds a one-byte read, which
       holds no region; the output region is a datagram of ao bytes, followed by a one-byte write *)
    destruct Hk as [Hai Hao].
    destruct (if truthy (t_in t) then _ else _) as [[st1 bi]|] eqn:E1 in H; [|discriminate].
    assert (I1 : inv st1 (rs ++ map (fun x => (x, ai)) (opt_list bi))).
    { destruct (truthy (t_in t)) eqn:Ti; [|inversion E1; subst; now rewrite app_nil_r].
      destruct (s_append _ _) as [pk|] eqn:Ea in E1; inversion E1; subst.
      apply (s_append_size false) in Ea.
      apply inv_fin; [exact I|exact Hai|unfold psize, zlen in *; lia]. }
    destruct (t_rw t && truthy (t_out t)) eqn:To.
    + destruct (s_append_writer _ _) as [pkA|] eqn:EA in H; [|discriminate].
      destruct (s_append_writer pkA _) as [pk|] eqn:EB in H; inversion H; subst; cbn [fst snd]; rewrite app_assoc.
      apply (s_append_size true) in EA, EB. rewrite zlen_zeros in EA by lia.
      apply inv_direct; [exact I1|exact Hao|unfold psize, zlen in *; lia].
    + inversion H; subst. cbn [fst snd]. now rewrite app_assoc, app_nil_r.
Qed.

Lemma alloc_terms_inv ts : forall st st' bs rs, Forall wf_term ts -> inv st rs ->
  alloc_terms st ts = Some (st', bs) -> length bs = length ts /\ inv st' (rs ++ all_regs ts bs).
Proof.
  induction ts as [|t tl IH]; intros st st' bs rs Hwf I H; cbn [alloc_terms] in H.
  - inversion H; subst. now rewrite app_nil_r.
  - inversion Hwf as [|? ? Hwt Hwtl]; subst.
    destruct (alloc_term st t) as [[st1 b]|] eqn:E1; [|discriminate].
    destruct (alloc_terms st1 tl) as [[st2 bs']|] eqn:E2; [|discriminate].
    inversion H; subst; clear H.
    destruct (IH _ _ _ _ Hwtl (alloc_term_inv _ _ _ _ _ Hwt I E1) E2) as [L I2].
    cbn [all_regs length]. rewrite app_assoc. split; [lia|exact I2].
Qed.

(* an image of z bytes is one more datagram, and none at all if it is empty *)
Lemma image_size (writer : bool) z pk cmd wkc addr pk' : 0 <= z -> p_size (sp pk) <= Packet_MAXSIZE ->
  (if truthy z
   then if writer then s_append_writer pk (dg cmd (zeros (Z.to_nat z)) wkc addr)
        else s_append pk (dg cmd (zeros (Z.to_nat z)) wkc addr)
   else Some pk) = Some pk' ->
  p_size (sp pk') = p_size (sp pk) + (if truthy z then 12 + z else 0) /\ p_size (sp pk') <= Packet_MAXSIZE.
Proof.
  intros Hz Hp H. destruct (truthy z); [|injection H as <-; lia].
  apply s_append_size in H. rewrite zlen_zeros in H by exact Hz. lia.
Qed.

Lemma append_fmmu_inv st logical st2 in_pos out_pos lin lout : wf_st st ->
  append_fmmu st logical = Some (st2, (in_pos, out_pos, lin, lout)) ->
  in_pos = psize st /\ lin = logical /\ lout = logical + SterilePacket_logical_addr_inc /\
  out_pos = in_pos + (if truthy (fin_size st) then 12 + fin_size st else 0) /\
  psize st2 = out_pos + (if truthy (fout_size st) then 12 + fout_size st else 0) /\
  psize st2 <= Packet_MAXSIZE.
Proof.
  intros (Hp & Hfi & Hfo) H. unfold append_fmmu in H. unfold psize in *.
  destruct (if truthy (fin_size st) then _ else _) as [pk1|] eqn:E1 in H; [|discriminate].
  destruct (if truthy (fout_size st) then _ else _) as [pk2|] eqn:E2 in H; inversion H; subst; clear H.
  apply (image_size false) in E1; [|exact Hfi|lia]. apply (image_size true) in E2; [|exact Hfo|lia].
  cbn [with_pk a_pk]. repeat split; lia.
Qed.

(* absolute frame interval [start, start+size) of a symbolic region *)
Definition abs_start (in_pos out_pos : Z) (r : base * Z) : Z :=
  match fst r with
  | BNo a => a + 10
  | BIn off => in_pos + off + 10
  | BOut off => out_pos + off + 10
  end.
Definition adisj (in_pos out_pos : Z) (r1 r2 : base * Z) : Prop :=
  abs_start in_pos out_pos r1 + snd r1 <= abs_start in_pos out_pos r2 \/
  abs_start in_pos out_pos r2 + snd r2 <= abs_start in_pos out_pos r1.

(* the frame ends with the LRD datagram, if there is input, and then the LWR datagram: regions of different kinds lie in
   different datagrams, regions of one kind keep their distance *)
Lemma inv_adisj st rs out_pos : inv st rs ->
  out_pos = psize st + (if truthy (fin_size st) then 12 + fin_size st else 0) ->
  ForallOrdPairs (adisj (psize st) out_pos) rs.
Proof.
  intros ((_ & Hfi & _) & B & D) Ho. apply (FOP_strengthen (bounded st) sdisj); [|exact B|exact D].
  unfold truthy in Ho. unfold bounded, final_bound, sdisj, adisj, abs_start.
  destruct (Z.eqb_spec (fin_size st) 0); cbn [negb] in Ho; intros [[a|a|a] n1] [[b|b|b] n2]; cbn [fst snd]; lia.
Qed.

(* logical windows of different sync groups of one (single-process) master; vocabulary of
   C18_windows_disjoint (Props/C18.v) *)
Definition in_window (k : Z) (fin fout a : Z) : Prop :=
  fmmu_addr k <= a < fmmu_addr k + fin \/
  fmmu_addr k + SterilePacket_logical_addr_inc <= a < fmmu_addr k + SterilePacket_logical_addr_inc + fout.
