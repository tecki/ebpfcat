(* Little-endian byte strings, as Python's struct "<" formats produce them, two's complement, and the Z-indexed list
   operations (zlen, ztake, zdrop, Python slices). *)
From Verif Require Export Lib.Base.

Definition is_byte (b : Z) : Prop := 0 <= b < 256.

Fixpoint le_bytes (n : nat) (z : Z) : list Z :=
  match n with
  | O => []
  | S k => (z mod 256) :: le_bytes k (z / 256)
  end.

Fixpoint le_val (l : list Z) : Z :=
  match l with
  | [] => 0
  | b :: tl => b + 256 * le_val tl
  end.

(* two's complement reading of an n-byte value *)
Definition sx (n : nat) (z : Z) : Z :=
  if z <? 2 ^ (8 * Z.of_nat n - 1) then z else z - 2 ^ (8 * Z.of_nat n).

Definition zeros (n : nat) : list Z := repeat 0 n.

Definition ztake (z : Z) {A} (l : list A) : list A := firstn (Z.to_nat z) l.
Definition zdrop (z : Z) {A} (l : list A) : list A := skipn (Z.to_nat z) l.
Definition zlen {A} (l : list A) : Z := Z.of_nat (length l).

(* Python slice l[a:b] for step 1, negative bounds counted from the end *)
Definition py_bound (len i : Z) : Z :=
  if i <? 0 then Z.max 0 (i + len) else Z.min i len.
Definition py_slice {A} (l : list A) (a b : Z) : list A :=
  let a' := py_bound (zlen l) a in
  let b' := py_bound (zlen l) b in
  ztake (b' - a') (zdrop a' l).

Lemma le_bytes_length n z : length (le_bytes n z) = n.
Proof. revert z; induction n; intros z; cbn; auto. Qed.

Lemma le_bytes_is_byte n z : Forall is_byte (le_bytes n z).
Proof. revert z; induction n; intros z; constructor; auto. apply Z.mod_pos_bound. lia. Qed.

Lemma pow256_S n : 256 ^ Z.of_nat (S n) = 256 * 256 ^ Z.of_nat n.
Proof. rewrite Nat2Z.inj_succ. apply Z.pow_succ_r. lia. Qed.

Lemma pow256 n : 256 ^ Z.of_nat n = 2 ^ (8 * Z.of_nat n).
Proof. change 256 with (2 ^ 8). rewrite <- Z.pow_mul_r; [reflexivity|lia|lia]. Qed.

Lemma pow256_pos n : 0 < 256 ^ Z.of_nat n.
Proof. apply Z.pow_pos_nonneg; lia. Qed.

Lemma le_val_le_bytes n z : le_val (le_bytes n z) = z mod 256 ^ Z.of_nat n.
Proof.
  revert z; induction n as [|n IH]; intros z; [now rewrite Z.mod_1_r|].
  cbn [le_bytes le_val]. rewrite IH, pow256_S, Z.rem_mul_r; [reflexivity|lia|apply pow256_pos].
Qed.

Lemma le_val_le_bytes_small n z : 0 <= z < 256 ^ Z.of_nat n -> le_val (le_bytes n z) = z.
Proof. intros H. rewrite le_val_le_bytes. now apply Z.mod_small. Qed.

Lemma le_bytes_le_val n l : length l = n -> Forall is_byte l -> le_bytes n (le_val l) = l.
Proof.
  intros <-. induction 1 as [|b tl Hb _ IH]; [reflexivity|]. unfold is_byte in Hb. cbn [length le_bytes le_val].
  f_equal; [lia|]. etransitivity; [|exact IH]. f_equal. lia.
Qed.

Lemma le_bytes_mod n z : le_bytes n (z mod 256 ^ Z.of_nat n) = le_bytes n z.
Proof. rewrite <- le_val_le_bytes. apply le_bytes_le_val; [apply le_bytes_length|apply le_bytes_is_byte]. Qed.

Lemma le_val_bound l : Forall is_byte l -> 0 <= le_val l < 256 ^ zlen l.
Proof.
  unfold zlen. induction 1 as [|b tl Hb _ IH]; [cbn; lia|]. unfold is_byte in Hb.
  cbn [length le_val]. rewrite pow256_S. lia.
Qed.

Lemma le_val_app a b : le_val (a ++ b) = le_val a + 256 ^ zlen a * le_val b.
Proof.
  unfold zlen. induction a as [|x a IH]; [cbn [app le_val length]; lia|].
  cbn [app le_val length]. rewrite pow256_S, IH. ring.
Qed.

Lemma pow2_half k : 0 < k -> 2 ^ k = 2 * 2 ^ (k - 1).
Proof. intros. rewrite <- Z.pow_succ_r by lia. f_equal. lia. Qed.

Lemma sx_bounds n z : (0 < n)%nat -> 0 <= z < 256 ^ Z.of_nat n ->
  - 2 ^ (8 * Z.of_nat n - 1) <= sx n z < 2 ^ (8 * Z.of_nat n - 1).
Proof.
  intros Hn. unfold sx. rewrite pow256, (pow2_half (8 * Z.of_nat n)) by lia.
  destruct (Z.ltb_spec z (2 ^ (8 * Z.of_nat n - 1))); lia.
Qed.

Lemma sx_mod n z : (0 < n)%nat -> - 2 ^ (8 * Z.of_nat n - 1) <= z < 2 ^ (8 * Z.of_nat n - 1) ->
  sx n (z mod 256 ^ Z.of_nat n) = z.
Proof.
  intros Hn Hz. unfold sx. rewrite pow256, (pow2_half (8 * Z.of_nat n)) by lia.
  set (h := 2 ^ (8 * Z.of_nat n - 1)) in *. assert (0 < h) by (apply Z.pow_pos_nonneg; lia).
  destruct (Z.ltb_spec z 0).
  - rewrite <- (Z.mod_add z 1 (2 * h)), Z.mod_small by lia. destruct (Z.ltb_spec (z + 1 * (2 * h)) h); lia.
  - rewrite Z.mod_small by lia. destruct (Z.ltb_spec z h); lia.
Qed.

Lemma zeros_length n : length (zeros n) = n.
Proof. apply repeat_length. Qed.

Lemma zeros_app a b : zeros (a + b) = zeros a ++ zeros b.
Proof. apply repeat_app. Qed.

Lemma le_val_zeros n : le_val (zeros n) = 0.
Proof. unfold zeros. induction n as [|n IH]; cbn [repeat le_val]; lia. Qed.

Lemma zlen_app {A} (a b : list A) : zlen (a ++ b) = zlen a + zlen b.
Proof. unfold zlen. rewrite app_length. lia. Qed.

Lemma zlen_nonneg {A} (l : list A) : 0 <= zlen l.
Proof. unfold zlen. lia. Qed.

Lemma zlen_zeros z : 0 <= z -> zlen (zeros (Z.to_nat z)) = z.
Proof. intros. unfold zlen. rewrite zeros_length. lia. Qed.

Lemma ztake_app_exact {A} (a b : list A) : ztake (zlen a) (a ++ b) = a.
Proof.
  unfold ztake, zlen. rewrite Nat2Z.id, firstn_app, Nat.sub_diag, firstn_all. apply app_nil_r.
Qed.

Lemma zdrop_app_exact {A} (a b : list A) : zdrop (zlen a) (a ++ b) = b.
Proof. unfold zdrop, zlen. now rewrite Nat2Z.id, skipn_app, Nat.sub_diag, skipn_all. Qed.
