(* Bit-level facts about the unbounded integers Python computes with:
   b | (1 << k),  b & ~(1 << k),  b & (1 << k),  a | (b << k),  x & -2^k,  b < 2^n;  and bitwise operations modulo 2^k. *)
From Verif Require Export Lib.Base.

Lemma testbit_onehot k i : 0 <= k -> Z.testbit (Z.shiftl 1 k) i = (i =? k).
Proof. intros H. now rewrite Z.shiftl_1_l, Z.pow2_bits_eqb, Z.eqb_sym. Qed.

Lemma set_bit_bits b k i : 0 <= k -> Z.testbit (Z.lor b (Z.shiftl 1 k)) i = Z.testbit b i || (i =? k).
Proof. intros H. now rewrite Z.lor_spec, testbit_onehot. Qed.

Lemma clear_bit_bits b k i : 0 <= k -> 0 <= i ->
  Z.testbit (Z.land b (Z.lnot (Z.shiftl 1 k))) i = Z.testbit b i && negb (i =? k).
Proof. intros Hk Hi. now rewrite Z.land_spec, Z.lnot_spec, testbit_onehot. Qed.

Lemma land_1_r b : Z.land b 1 = b mod 2.
Proof. apply (Z.land_ones b 1). lia. Qed.

(* the numbers below 2^n are the numbers with no bit from n on (such a number is not negative) *)
Lemma below_pow2_bits b n : 0 <= n -> 0 <= b < 2 ^ n <-> forall i, n <= i -> Z.testbit b i = false.
Proof.
  intros Hn. split.
  - intros [H0 H] i Hi. destruct (Z.eq_dec b 0) as [->|]; [apply Z.bits_0|].
    apply Z.bits_above_log2; [exact H0|]. enough (Z.log2 b < n) by lia. apply Z.log2_lt_pow2; lia.
  - intros H. assert (H0 : 0 <= b) by (apply Z.bits_iff_nonneg_ex; exists n; intros i Hi; apply H; lia).
    split; [exact H0|]. destruct (Z.eq_dec b 0) as [->|]; [apply Z.pow_pos_nonneg; lia|]. apply Z.log2_lt_pow2; [lia|].
    destruct (Z.lt_ge_cases (Z.log2 b) n) as [|L]; [assumption|]. apply H in L. rewrite Z.bit_log2 in L by lia. discriminate.
Qed.

(* a field placed above the bits of a: or is addition *)
Lemma lor_shiftl_add a b k : 0 <= a < 2 ^ k -> 0 <= k -> Z.lor a (Z.shiftl b k) = a + b * 2 ^ k.
Proof.
  intros Ha Hk. rewrite <- Z.shiftl_mul_pow2 by exact Hk.
  assert (D : Z.land a (Z.shiftl b k) = 0).
  { apply Z.bits_inj'. intros i Hi. rewrite Z.land_spec, Z.bits_0, Z.shiftl_spec by exact Hi.
    destruct (Z.lt_ge_cases i k); [rewrite (Z.testbit_neg_r b) by lia; apply andb_false_r|].
    rewrite (proj1 (below_pow2_bits a k Hk) Ha) by assumption. reflexivity. }
  now rewrite Z.add_nocarry_lxor, Z.lxor_lor.
Qed.

Lemma land_onehot b k : 0 <= k -> Z.land b (Z.shiftl 1 k) = if Z.testbit b k then Z.shiftl 1 k else 0.
Proof.
  intros Hk. apply Z.bits_inj'. intros i Hi. rewrite Z.land_spec, testbit_onehot by exact Hk.
  destruct (Z.eqb_spec i k) as [->|N].
  - rewrite andb_true_r. destruct (Z.testbit b k); [now rewrite testbit_onehot, Z.eqb_refl|now rewrite Z.bits_0].
  - rewrite andb_false_r. destruct (Z.testbit b k); [rewrite testbit_onehot by exact Hk; lia|now rewrite Z.bits_0].
Qed.

(* x & m with m < 0: the bits of x that m clears have non-negative weight (x = (x & ~m) + (x & m)), so masking never
   raises x *)
Lemma land_neg_le x m : m < 0 -> Z.land x m <= x.
Proof.
  intros Hm. assert (D : Z.land (Z.ldiff x m) (Z.land x m) = 0).
  { rewrite (Z.land_comm x m), Z.land_assoc, Z.land_ldiff. reflexivity. }
  assert (0 <= Z.ldiff x m) by (apply Z.ldiff_nonneg; auto).
  rewrite <- (Z.lor_ldiff_and x m) at 2. rewrite <- (Z.lxor_lor _ _ D), <- (Z.add_nocarry_lxor _ _ D). lia.
Qed.

Lemma land_neg_pow2 x k : 0 <= k -> Z.land x (- 2 ^ k) = 2 ^ k * (x / 2 ^ k).
Proof.
  intros Hk. replace (- 2 ^ k) with (Z.lnot (Z.ones k)) by (rewrite Z.ones_equiv; unfold Z.lnot; lia).
  rewrite <- Z.ldiff_land, Z.ldiff_ones_r, Z.shiftl_mul_pow2, Z.shiftr_div_pow2 by exact Hk. lia.
Qed.

(* bitwise operations modulo a power of two: op works bit by bit, through f *)
Section BitOp.
  Variables (op : Z -> Z -> Z) (f : bool -> bool -> bool).
  Hypothesis op_spec : forall a b n, Z.testbit (op a b) n = f (Z.testbit a n) (Z.testbit b n).
  Hypothesis f_false : f false false = false.

  Lemma bitop_mod_pow2 a b k : 0 <= k -> op a b mod 2 ^ k = op (a mod 2 ^ k) (b mod 2 ^ k).
  Proof.
    intros Hk. apply Z.bits_inj'. intros n Hn. rewrite op_spec, !Z.testbit_mod_pow2, op_spec by exact Hk.
    destruct (n <? k); [reflexivity|]. symmetry. exact f_false.
  Qed.

  Lemma bitop_range a b k : 0 <= k -> 0 <= a < 2 ^ k -> 0 <= b < 2 ^ k -> 0 <= op a b < 2 ^ k.
  Proof.
    intros Hk Ha Hb. rewrite <- (Z.mod_small a (2 ^ k)), <- (Z.mod_small b (2 ^ k)), <- bitop_mod_pow2 by assumption.
    apply Z.mod_pos_bound. lia.
  Qed.
End BitOp.

Lemma land_range a b k : 0 <= k -> 0 <= a < 2 ^ k -> 0 <= b < 2 ^ k -> 0 <= Z.land a b < 2 ^ k.
Proof. apply (bitop_range Z.land andb Z.land_spec eq_refl). Qed.
Lemma lor_range a b k : 0 <= k -> 0 <= a < 2 ^ k -> 0 <= b < 2 ^ k -> 0 <= Z.lor a b < 2 ^ k.
Proof. apply (bitop_range Z.lor orb Z.lor_spec eq_refl). Qed.
Lemma lxor_range a b k : 0 <= k -> 0 <= a < 2 ^ k -> 0 <= b < 2 ^ k -> 0 <= Z.lxor a b < 2 ^ k.
Proof. apply (bitop_range Z.lxor xorb Z.lxor_spec eq_refl). Qed.
