(* List facts used across the development and missing from the 8.16 standard library: invariants over event lists, firstn
   / skipn / nth, a block written over a list (splice), the update set_at, what the systems with a list of participants
   share (uniq, handover), NoDup under map and ForallOrdPairs. *)
From Verif Require Export Lib.Bytes.

Lemma fold_left_inv {S E} (I : S -> Prop) (f : S -> E -> S) : (forall s e, I s -> I (f s e)) ->
  forall es s, I s -> I (fold_left f es s).
Proof. intros H es. induction es; cbn; auto. Qed.

Lemma fold_left_sim {A B E} (R : A -> B -> Prop) (f : A -> E -> A) (g : B -> E -> B) :
  (forall a b e, R a b -> R (f a e) (g b e)) -> forall es a b, R a b -> R (fold_left f es a) (fold_left g es b).
Proof. intros H es. induction es; cbn; auto. Qed.

Lemma existsb_Zeqb x l : existsb (Z.eqb x) l = true <-> In x l.
Proof.
  rewrite existsb_exists. split; [intros (y & H & ->%Z.eqb_eq); exact H|].
  intros H. exists x. now rewrite Z.eqb_refl.
Qed.

Lemma nth_firstn_lt {A} (l : list A) : forall n i d, (i < n)%nat -> nth i (firstn n l) d = nth i l d.
Proof. induction l; intros [|n] [|i] d H; cbn; auto with arith; lia. Qed.

Lemma nth_skipn {A} (l : list A) : forall n i d, nth i (skipn n l) d = nth (n + i) l d.
Proof. induction l; intros [|n] i d; cbn; auto. now destruct i. Qed.

Lemma nth_repeat_any {A} (a d : A) n i : nth i (repeat a n) d = if (i <? n)%nat then a else d.
Proof.
  destruct (Nat.ltb_spec i n); [|apply nth_overflow; now rewrite repeat_length].
  rewrite (nth_indep _ d a) by now rewrite repeat_length. apply nth_repeat.
Qed.

Lemma firstn_app_exact' {A} (a b : list A) n : length a = n -> firstn n (a ++ b) = a.
Proof. intros <-. now rewrite firstn_app, Nat.sub_diag, firstn_all, app_nil_r. Qed.
Lemma skipn_app_exact' {A} (a b : list A) n : length a = n -> skipn n (a ++ b) = b.
Proof. intros <-. now rewrite skipn_app, Nat.sub_diag, skipn_all. Qed.
Lemma firstn_app_exact {A} (a b : list A) : firstn (length a) (a ++ b) = a.
Proof. now apply firstn_app_exact'. Qed.
Lemma skipn_app_exact {A} (a b : list A) : skipn (length a) (a ++ b) = b.
Proof. now apply skipn_app_exact'. Qed.

Lemma skipn_add {A} (l : list A) : forall a b, skipn a (skipn b l) = skipn (b + a) l.
Proof. induction l as [|x l IH]; intros a [|b]; cbn; auto using skipn_nil. Qed.

Lemma Forall_firstn {A} (P : A -> Prop) n l : Forall P l -> Forall P (firstn n l).
Proof. intros H. rewrite <- (firstn_skipn n l) in H. now apply Forall_app in H. Qed.
Lemma Forall_skipn {A} (P : A -> Prop) n l : Forall P l -> Forall P (skipn n l).
Proof. intros H. rewrite <- (firstn_skipn n l) in H. now apply Forall_app in H. Qed.

Lemma nth_app_repeat {A} (l : list A) d n i : nth i (l ++ repeat d n) d = nth i l d.
Proof.
  destruct (Nat.ltb_spec i (length l)); [now apply app_nth1|].
  rewrite app_nth2, nth_repeat_any, (nth_overflow l) by lia. now destruct (_ <? _)%nat.
Qed.

(* a block b written over l from position a on *)
Lemma splice_length {A} (l b : list A) a : (a + length b <= length l)%nat ->
  length (firstn a l ++ b ++ skipn (a + length b) l) = length l.
Proof. intros H. rewrite !app_length, firstn_length, skipn_length. lia. Qed.

Lemma nth_splice {A} (l b : list A) a j d : (a + length b <= length l)%nat ->
  nth j (firstn a l ++ b ++ skipn (a + length b) l) d =
  if (j <? a)%nat then nth j l d else if (j <? a + length b)%nat then nth (j - a) b d else nth j l d.
Proof.
  intros H. assert (La : length (firstn a l) = a) by (rewrite firstn_length; lia).
  destruct (Nat.ltb_spec j a); [rewrite app_nth1 by lia; now apply nth_firstn_lt|].
  rewrite app_nth2, La by lia. destruct (Nat.ltb_spec j (a + length b)); [apply app_nth1; lia|].
  rewrite app_nth2, nth_skipn by lia. f_equal. lia.
Qed.

Lemma nth_splice_outside {A} (l b : list A) a j d : (a + length b <= length l)%nat ->
  (j < a \/ a + length b <= j)%nat -> nth j (firstn a l ++ b ++ skipn (a + length b) l) d = nth j l d.
Proof.
  intros H Hj. rewrite nth_splice by exact H.
  destruct (Nat.ltb_spec j a), (Nat.ltb_spec j (a + length b)); auto; lia.
Qed.

Lemma nth_splice_inside {A} (l b : list A) a j d : (a + length b <= length l)%nat ->
  (a <= j < a + length b)%nat -> nth j (firstn a l ++ b ++ skipn (a + length b) l) d = nth (j - a) b d.
Proof.
  intros H Hj. rewrite nth_splice by exact H.
  destruct (Nat.ltb_spec j a), (Nat.ltb_spec j (a + length b)); auto; lia.
Qed.

Fixpoint set_at {A} (n : nat) (v : A) (l : list A) : list A :=
  match l, n with
  | [], _ => []
  | _ :: tl, O => v :: tl
  | x :: tl, S k => x :: set_at k v tl
  end.

Lemma set_at_length {A} (l : list A) : forall n v, length (set_at n v l) = length l.
Proof. induction l; intros [|n] v; cbn; auto. Qed.

Lemma nth_error_set_at {A} (l : list A) : forall n m v,
  nth_error (set_at n v l) m = if Nat.eqb n m && (n <? length l)%nat then Some v else nth_error l m.
Proof.
  induction l as [|x l IH]; intros n m v; [now rewrite andb_false_r; destruct n|].
  destruct n, m; cbn; auto. apply IH.
Qed.

Lemma nth_set_at {A} (l : list A) n m v d :
  nth m (set_at n v l) d = if Nat.eqb n m && (n <? length l)%nat then v else nth m l d.
Proof.
  rewrite <- !(nth_default_eq _ _ d). unfold nth_default. rewrite nth_error_set_at.
  now destruct (_ && _).
Qed.

Lemma nth_set_at_same {A} (l : list A) n v d : (n < length l)%nat -> nth n (set_at n v l) d = v.
Proof. intros H%Nat.ltb_lt. now rewrite nth_set_at, Nat.eqb_refl, H. Qed.

Lemma nth_set_at_other {A} (l : list A) n m v d : n <> m -> nth m (set_at n v l) d = nth m l d.
Proof. intros H%Nat.eqb_neq. now rewrite nth_set_at, H. Qed.

Lemma nth_error_set_at_in {A} (l : list A) k a a' j : nth_error l k = Some a ->
  nth_error (set_at k a' l) j = if Nat.eqb k j then Some a' else nth_error l j.
Proof.
  intros H. rewrite nth_error_set_at. replace (k <? length l)%nat with true; [now rewrite andb_true_r|].
  symmetry. apply Nat.ltb_lt, nth_error_Some. congruence.
Qed.

Lemma nth_set_at_in {A} (l : list A) k v j d : (k < length l)%nat ->
  nth j (set_at k v l) d = if Nat.eqb k j then v else nth j l d.
Proof. intros H%Nat.ltb_lt. now rewrite nth_set_at, H, andb_true_r. Qed.

Lemma nth_error_set_at_same {A} (l : list A) n v : (n < length l)%nat -> nth_error (set_at n v l) n = Some v.
Proof. intros H%Nat.ltb_lt. now rewrite nth_error_set_at, Nat.eqb_refl, H. Qed.

Lemma nth_error_set_at_other {A} (l : list A) n m v : n <> m -> nth_error (set_at n v l) m = nth_error l m.
Proof. intros H%Nat.eqb_neq. now rewrite nth_error_set_at, H. Qed.

(* writing the value that nth takes as its default needs no bound: beyond the
   end nth gives that value anyway *)
Lemma nth_set_at_default {A} (l : list A) n m d :
  nth m (set_at n d l) d = if Nat.eqb n m then d else nth m l d.
Proof.
  rewrite nth_set_at. destruct (Nat.eqb_spec n m) as [->|]; [|reflexivity].
  destruct (Nat.ltb_spec m (length l)); cbn [andb]; [reflexivity|]. now apply nth_overflow.
Qed.

Lemma set_at_split {A} (l : list A) : forall n v, (n < length l)%nat ->
  set_at n v l = firstn n l ++ v :: skipn (S n) l.
Proof. induction l as [|x l IH]; intros [|n] v H; cbn in *; try lia; auto. now rewrite <- IH by lia. Qed.

Lemma set_at_after {A} (a b : list A) x v : set_at (length a) v (a ++ x :: b) = a ++ v :: b.
Proof. induction a as [|y a IH]; [reflexivity|]. cbn [length app set_at]. now rewrite IH. Qed.

Lemma set_at_set_at {A} (l : list A) : forall n v w, set_at n w (set_at n v l) = set_at n w l.
Proof. induction l; intros [|n] v w; cbn; congruence. Qed.

Lemma set_at_id {A} (l : list A) : forall n v, nth_error l n = Some v -> set_at n v l = l.
Proof. induction l as [|x l IH]; intros [|n] v; cbn; try congruence. intros H. now rewrite IH. Qed.

Lemma Forall_set_at {A} (P : A -> Prop) (l : list A) : forall n v, P v -> Forall P l -> Forall P (set_at n v l).
Proof. induction l; intros [|n] v Hv H; cbn; inversion H; auto. Qed.

(* Systems whose state holds a list of local states (participants, tasks) are described through partial functions of the
   index (j |-> the file that j owns; j |-> the address that task j claims); a step changes such a function at one index. *)

Definition uniq {A} (o : nat -> option A) : Prop := forall j1 j2 a, o j1 = Some a -> o j2 = Some a -> j1 = j2.

Lemma uniq_upd {A} (o o' : nat -> option A) k b : uniq o -> (forall j, o' j = if Nat.eqb k j then b else o j) ->
  (forall j a, b = Some a -> o j = Some a -> k = j) -> uniq o'.
Proof.
  intros U E H j1 j2 a. rewrite !E.
  destruct (Nat.eqb_spec k j1) as [<-|], (Nat.eqb_spec k j2) as [<-|]; eauto.
  intros H1 H2. symmetry. eauto.
Qed.

Definition view {A B} (v : A -> option B) (l : list A) (j : nat) : option B :=
  match nth_error l j with Some a => v a | None => None end.

Lemma view_at {A B} (v : A -> option B) l j a : nth_error l j = Some a -> view v l j = v a.
Proof. intros H. unfold view. now rewrite H. Qed.

Lemma view_set_at {A B} (v : A -> option B) l k a a' j : nth_error l k = Some a ->
  view v (set_at k a' l) j = if Nat.eqb k j then v a' else view v l j.
Proof. intros H. unfold view. rewrite (nth_error_set_at_in l k a a' j H). now destruct (Nat.eqb k j). Qed.

(* uniq read off a list: the selected elements have pairwise distinct g-values *)
Lemma uniq_filter {A B} (f : A -> bool) (g : A -> B) l :
  uniq (view (fun a => if f a then Some (g a) else None) l) -> NoDup (map g (filter f l)).
Proof.
  induction l as [|a l IH]; intros U; cbn; [constructor|].
  specialize (IH (fun j1 j2 b H1 H2 => eq_add_S _ _ (U (S j1) (S j2) b H1 H2))).
  destruct (f a) eqn:Fa; [|exact IH]. constructor; [|exact IH].
  intros (b & Eg & [[j Hj]%In_nth_error Fb]%filter_In)%in_map_iff.
  discriminate (U 0%nat (S j) (g a)); unfold view; cbn [nth_error]; [now rewrite Fa|]. rewrite Hj, Fb. congruence.
Qed.

(* The values are names that the indices own, and shared state records which names are taken: F before the step, F'
   after it (the files in a lock directory, the addresses drawn so far).  How index k hands a name over in one step: *)
Inductive handover {A} (F : A -> Prop) : option A -> option A -> (A -> Prop) -> Prop :=
| HKeep a : handover F a a F
| HTake e (F' : A -> Prop) : ~ F e -> (forall x, x = e \/ F x -> F' x) -> handover F None (Some e) F'
| HDrop e (F' : A -> Prop) : (forall x, F x -> x <> e -> F' x) -> handover F (Some e) None F'.

(* o j is the name that j owns: the names owned stay on record, and stay distinct *)
Lemma handover_owners {A} (F F' : A -> Prop) (o o' : nat -> option A) k a b :
  (forall j e, o j = Some e -> F e) -> uniq o ->
  o k = a -> (forall j, o' j = if Nat.eqb k j then b else o j) -> handover F a b F' ->
  (forall j e, o' j = Some e -> F' e) /\ uniq o'.
Proof.
  intros IF IU Ek E HO. split.
  - intros j x. rewrite E. destruct HO as [a|e F' N HF|e F' HF].
    + destruct (Nat.eqb_spec k j) as [<-|]; [rewrite <- Ek|]; apply IF.
    + destruct (Nat.eqb k j); intros H; apply HF; [left; congruence|right; eauto].
    + destruct (Nat.eqb_spec k j) as [|Nk]; [discriminate|]. intros H. apply HF; [eauto|].
      (* j does not own the name that k gives up *)
      intros ->. exact (Nk (IU k j e Ek H)).
  - apply (uniq_upd o o' k b IU E). intros j x Eb H. destruct HO as [a|e F' N HF|e F' HF].
    + apply (IU k j x); congruence.
    + elim N. apply (IF j). congruence.
    + discriminate.
Qed.

Lemma NoDup_map_filter {A B} (f : A -> B) (p : A -> bool) l : NoDup (map f l) -> NoDup (map f (filter p l)).
Proof.
  induction l as [|x l IH]; cbn; [auto|]. intros [Hx Hl]%NoDup_cons_iff.
  destruct (p x); cbn; [|auto]. constructor; [|auto].
  intros (y & E & Hy%filter_In)%in_map_iff. apply Hx. rewrite <- E. now apply in_map.
Qed.

Lemma NoDup_map_inj {A B} (f : A -> B) l x y : NoDup (map f l) -> In x l -> In y l -> f x = f y -> x = y.
Proof.
  induction l as [|z l IH]; cbn; [easy|]. intros [Hz Hl]%NoDup_cons_iff [->|Hx] [->|Hy] E; auto.
  - destruct Hz. rewrite E. now apply in_map.
  - destruct Hz. rewrite <- E. now apply in_map.
Qed.

Lemma FOP_app {A} (R : A -> A -> Prop) l1 l2 :
  ForallOrdPairs R l1 -> ForallOrdPairs R l2 -> (forall a, In a l1 -> Forall (R a) l2) ->
  ForallOrdPairs R (l1 ++ l2).
Proof.
  induction 1 as [|a l Ha Hl IH]; intros H2 Hc; cbn [app]; [exact H2|].
  constructor.
  - apply Forall_app. split; [exact Ha|]. apply Hc. now left.
  - apply IH; [exact H2|]. intros x Hx. apply Hc. now right.
Qed.

Lemma FOP_strengthen {A} (P : A -> Prop) (R R' : A -> A -> Prop) l :
  (forall a b, P a -> P b -> R a b -> R' a b) -> Forall P l -> ForallOrdPairs R l -> ForallOrdPairs R' l.
Proof.
  intros HR HP H. induction H as [|a l Ha Hl IH]; [constructor|].
  inversion HP as [|? ? Pa Pl]; subst. constructor; [|apply IH, Pl].
  rewrite Forall_forall in *. intros x Hx. apply HR; auto.
Qed.
