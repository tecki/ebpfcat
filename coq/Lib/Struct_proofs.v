From Verif Require Import Lib.ListX Lib.Struct.

Lemma calcsize_app a b : calcsize (a ++ b) = (calcsize a + calcsize b)%nat.
Proof. induction a as [|it a IH]; cbn [app calcsize]; lia. Qed.

Lemma fit_str_length n l : length (fit_str n l) = n.
Proof. unfold fit_str. rewrite firstn_length, app_length, zeros_length. lia. Qed.

Lemma pack_int n s tl z vs : pack (FInt n s :: tl) (SInt z :: vs) =
  if in_range n s z then option_map (app (le_bytes n z)) (pack tl vs) else None.
Proof. reflexivity. Qed.

Lemma pack_int_inv n s tl z vs out :
  pack (FInt n s :: tl) (SInt z :: vs) = Some out ->
  in_range n s z = true /\ exists o, pack tl vs = Some o /\ out = le_bytes n z ++ o.
Proof.
  rewrite pack_int. destruct (in_range n s z); [|discriminate].
  destruct (pack tl vs) as [o|]; [|discriminate]. intros [= <-]. eauto.
Qed.

Lemma pack_cons_inv it tl vs out : pack (it :: tl) vs = Some out ->
  exists a vs' o, pack tl vs' = Some o /\ out = a ++ o /\ length a = isize it /\
    match it with
    | FInt n s => exists z, vs = SInt z :: vs' /\ in_range n s z = true /\ a = le_bytes n z
    | FPad => vs = vs' /\ a = [0]
    | FStr n => exists l, vs = SBytes l :: vs' /\ a = fit_str n l
    end.
Proof.
  destruct it as [n s| |n].
  - destruct vs as [|[z|l] vs']; try discriminate. intros (R & o & Ho & ->)%pack_int_inv.
    exists (le_bytes n z), vs', o. rewrite le_bytes_length. eauto 8.
  - cbn [pack]. destruct (pack tl vs) as [o|] eqn:Ho; [|discriminate]. intros [= <-].
    exists [0], vs, o. auto.
  - destruct vs as [|[z|l] vs']; try discriminate. cbn [pack].
    destruct (pack tl vs') as [o|] eqn:Ho; [|discriminate]. intros [= <-].
    exists (fit_str n l), vs', o. rewrite fit_str_length. eauto 8.
Qed.

(* inverts the packing of a format of integers, item by item: H becomes the
   equation for the remaining items, the range facts are named R, R0, ... *)
Ltac pack_inv H :=
  repeat (let R := fresh "R" in let o := fresh "o" in
          apply pack_int_inv in H; destruct H as (R & o & H & ->));
  injection H as <-.

Lemma pack_length f : forall vs out, pack f vs = Some out -> length out = calcsize f.
Proof.
  induction f as [|it tl IH]; intros vs out H.
  - destruct vs; inversion H; reflexivity.
  - apply pack_cons_inv in H as (a & vs' & o & Ho & -> & La & _).
    rewrite app_length, La, (IH _ _ Ho). reflexivity.
Qed.

Lemma decode_encode_int n s z : (0 < n)%nat -> in_range n s z = true ->
  decode_int n s (le_bytes n z) = z.
Proof.
  intros Hn Hr. unfold decode_int, in_range in *. rewrite le_val_le_bytes.
  destruct s; [apply sx_mod; lia|]. rewrite pow256. apply Z.mod_small. lia.
Qed.

(* struct has no 0-byte integer; the model's `FInt 0 true` would read the empty string as -1 (the sign test of sx finds no
   byte) *)
Fixpoint sizes_pos (f : fmt) : Prop :=
  match f with
  | [] => True
  | FInt n _ :: tl => (0 < n)%nat /\ sizes_pos tl
  | _ :: tl => sizes_pos tl
  end.

Lemma sizes_pos_app f g : sizes_pos (f ++ g) -> sizes_pos f /\ sizes_pos g.
Proof. induction f as [|[n s| |n] tl IH]; cbn [app sizes_pos]; tauto. Qed.

Lemma unpack_cons it tl a o : length a = isize it ->
  unpack (it :: tl) (a ++ o) =
  option_map (fun vs => match it with
                        | FPad => vs
                        | FInt n s => SInt (decode_int n s a) :: vs
                        | FStr _ => SBytes a :: vs
                        end) (unpack tl o).
Proof.
  intros La. cbn [unpack]. rewrite app_length, skipn_app_exact', firstn_app_exact' by exact La.
  destruct (Nat.ltb_spec (length a + length o) (isize it)); [lia|].
  now destruct (unpack tl o), it.
Qed.

Theorem unpack_pack f : sizes_pos f -> forall vs out, vals_ok f vs ->
  pack f vs = Some out -> unpack f out = Some vs.
Proof.
  induction f as [|it tl IH]; intros Hp vs out Hok H.
  - destruct vs; inversion H; reflexivity.
  - apply pack_cons_inv in H as (a & vs' & o & Ho & -> & La & Hit).
    rewrite unpack_cons by exact La.
    destruct it as [n s| |n]; cbn [sizes_pos] in Hp.
    + destruct Hit as (z & -> & R & ->), Hp as [Hn Hp]. cbn [vals_ok] in Hok.
      now rewrite (IH Hp _ _ Hok Ho), decode_encode_int.
    + destruct Hit as [-> ->]. now rewrite (IH Hp _ _ Hok Ho).
    + destruct Hit as (l & -> & ->), Hok as (Hl & _ & Hok).
      unfold fit_str. now rewrite (IH Hp _ _ Hok Ho), firstn_app_exact'.
Qed.

Lemma unpack_length f : forall b vs, unpack f b = Some vs -> length b = calcsize f.
Proof.
  induction f as [|it tl IH]; intros b vs H.
  - destruct b; simpl in *; [reflexivity|discriminate].
  - cbn [unpack] in H. destruct (Nat.ltb_spec (length b) (isize it)); [discriminate|].
    destruct (unpack tl (skipn (isize it) b)) as [vs'|] eqn:E; [|discriminate].
    apply IH in E. rewrite skipn_length in E. cbn [calcsize]. lia.
Qed.

Lemma unpack_total f : forall b, length b = calcsize f -> exists vs, unpack f b = Some vs.
Proof.
  induction f as [|it tl IH]; intros b H.
  - destruct b; simpl in *; [eauto|discriminate].
  - cbn [unpack calcsize] in *. destruct (Nat.ltb_spec (length b) (isize it)); [lia|].
    destruct (IH (skipn (isize it) b)) as [vs E]; [rewrite skipn_length; lia|].
    rewrite E. eauto.
Qed.

Lemma unpack_app f g : forall a b va vb, unpack f a = Some va -> unpack g b = Some vb ->
  unpack (f ++ g) (a ++ b) = Some (va ++ vb).
Proof.
  induction f as [|it tl IH]; intros a b va vb Ha Hb.
  - destruct a; [|discriminate]. injection Ha as <-. exact Hb.
  - pose proof (unpack_length _ _ _ Ha) as La. cbn [calcsize] in La.
    rewrite <- (firstn_skipn (isize it) a) in Ha |- *.
    cbn [app]. rewrite <- app_assoc. rewrite unpack_cons in Ha |- * by (rewrite firstn_length; lia).
    destruct (unpack tl (skipn (isize it) a)) as [vs|] eqn:E; [|discriminate].
    injection Ha as <-. rewrite (IH _ _ _ _ E Hb). now destruct it.
Qed.

Lemma unpack_zeros f : sizes_pos f -> unpack f (zeros (calcsize f)) = Some (zero_vals f).
Proof.
  induction f as [|it tl IH]; intros Hp; [reflexivity|].
  cbn [calcsize]. rewrite zeros_app, unpack_cons by apply zeros_length.
  destruct it as [n s| |n]; cbn [sizes_pos] in Hp.
  - destruct Hp as [Hn Hp]. rewrite (IH Hp). cbn [option_map zero_vals isize].
    unfold decode_int, sx. rewrite le_val_zeros. destruct s; [|reflexivity].
    (* 0 reads as 0 in two's complement only if there is a byte for the sign *)
    assert (0 < 2 ^ (8 * Z.of_nat n - 1)) by (apply Z.pow_pos_nonneg; lia).
    destruct (Z.ltb_spec 0 (2 ^ (8 * Z.of_nat n - 1))); [reflexivity|lia].
  - now rewrite (IH Hp).
  - now rewrite (IH Hp).
Qed.
