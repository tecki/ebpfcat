From Verif Require Import Lib.ListX Lib.Bits Gen.Layout.

Lemma pow2_pos s : pow2_size s -> 0 < s.
Proof. intros (k & Hk & ->). apply Z.pow_pos_nonneg; lia. Qed.

(* stack &= -size rounds down to a multiple of the size *)
Lemma alloc_local_spec stack s : pow2_size s ->
  let a := alloc_local stack s in a + s <= stack /\ stack - 2 * s < a /\ a mod s = 0.
Proof.
  intros Hs. destruct Hs as (k & Hk & ->).
  unfold alloc_local. rewrite land_neg_pow2 by exact Hk. set (p := 2 ^ k) in *. cbv zeta.
  rewrite (Z.mul_comm p), Z.mod_mul by lia. lia.
Qed.

Theorem dict_layout stack ks vs :
  let '((k, _), (v, _), st) := alloc_dict stack ks vs in
  st = v /\ v + vs <= k /\ k + ks <= stack /\ k mod 8 = 0 /\ v mod 8 = 0.
Proof. unfold alloc_dict. change (-8) with (- 2 ^ 3). rewrite !land_neg_pow2 by lia. lia. Qed.

(* Regions handed out from a cursor that only moves down: the regions of l lie below one another, in the order of
   the list, between top and bot.  Every allocator of the stack produces such a list, however it rounds the cursor
   between two regions; that the regions are disjoint and where they lie follows from this alone. *)
Fixpoint descending (top : Z) (l : list (Z * Z)) (bot : Z) : Prop :=
  match l with
  | [] => bot <= top
  | r :: tl => fst r + snd r <= top /\ 0 <= snd r /\ descending (fst r) tl bot
  end.

Lemma descending_spec : forall l top bot, descending top l bot ->
  bot <= top /\ Forall (fun r => bot <= fst r /\ fst r + snd r <= top) l /\ pairwise_disjoint l.
Proof.
  induction l as [|r tl IH]; cbn [descending pairwise_disjoint]; intros top bot H; [auto|].
  destruct H as (Hr & Hs & (Hb & Htl & Hd)%IH). split; [lia|]. split.
  - constructor; [lia|]. eapply Forall_impl; [|exact Htl]. cbn beta. lia.
  - split; [|exact Hd]. eapply Forall_impl; [|exact Htl]. unfold disjoint. lia.
Qed.

(* Disjointness needs no power of two: masking the cursor with the negative number -size only lowers it (land_neg_le), so
   a local of ANY positive size ends below the old cursor (12 bytes for "3I"); powers of two are what makes it aligned
   (alloc_local_spec). *)
Lemma alloc_local_below stack s : 0 < s -> alloc_local stack s + s <= stack.
Proof. intros H. pose proof (land_neg_le (stack - s) (- s)). unfold alloc_local. lia. Qed.

Definition item_pos (i : item) : Prop := match i with ILocal s => 0 < s | IDict ks vs => 0 <= ks /\ 0 <= vs end.

Lemma item_ok_pos i : item_ok i -> item_pos i.
Proof. destruct i; [apply pow2_pos|auto]. Qed.

Lemma alloc_items_descending : forall l stack, Forall item_pos l ->
  descending stack (fst (alloc_items stack l)) (snd (alloc_items stack l)).
Proof.
  induction l as [|i tl IH]; intros stack Hl; cbn [alloc_items]; [cbn; lia|].
  inversion Hl as [|? ? Hi Ht]; subst. destruct i as [s|ks vs].
  - specialize (IH (alloc_local stack s) Ht). destruct (alloc_items (alloc_local stack s) tl) as [rest st].
    cbn [descending fst snd item_pos] in *. split; [exact (alloc_local_below stack s Hi)|]. split; [lia|exact IH].
  - destruct Hi as [Hk Hv]. pose proof (dict_layout stack ks vs) as (_ & Dv & Dk & _). unfold alloc_dict in *.
    set (k := Z.land (stack - ks) (-8)) in *. set (v := Z.land (k - vs) (-8)) in *.
    specialize (IH v Ht). destruct (alloc_items v tl) as [rest st].
    cbn [descending fst snd] in *. auto.
Qed.

(* locals, Dict keys and Dict values of one program never overlap, for ANY declaration list in ANY order *)
Theorem items_disjoint l stack : Forall item_pos l -> pairwise_disjoint (fst (alloc_items stack l)).
Proof. intros Hl. apply (descending_spec _ _ _ (alloc_items_descending l stack Hl)). Qed.

(* scratch space (get_stack) taken after all declarations lies below every one of them *)
Theorem scratch_below_items l stack size : Forall item_pos l -> 0 < size ->
  let '(vars, st) := alloc_items stack l in
  Forall (fun r => disjoint (scratch st size, size) r) vars.
Proof.
  intros Hl Hz. pose proof (descending_spec _ _ _ (alloc_items_descending l stack Hl)) as (_ & B & _).
  destruct (alloc_items stack l) as [vars st]. cbn [fst snd] in B.
  pose proof (alloc_local_below st size Hz) as A.
  eapply Forall_impl; [|exact B]. unfold disjoint. cbn [fst snd]. change (scratch st size) with (alloc_local st size). lia.
Qed.

Lemma alloc_locals_items : forall sizes stack, alloc_locals stack sizes = alloc_items stack (map ILocal sizes).
Proof. induction sizes as [|s tl IH]; intros stack; cbn; [|rewrite IH]; reflexivity. Qed.

(* array-map variables never overlap, whatever the formats and their order *)
Theorem positions_disjoint : forall sizes pos, Forall (fun s => 0 <= s) sizes ->
  pairwise_disjoint (positions pos sizes) /\ Forall (fun r => pos <= fst r) (positions pos sizes).
Proof.
  induction sizes as [|s tl IH]; intros pos Hs; cbn [positions pairwise_disjoint]; [auto|].
  inversion Hs as [|? ? H1 H2]; subst. destruct (IH (pos + s) H2) as [D L]. repeat split.
  - eapply Forall_impl; [|exact L]. unfold disjoint. cbn [fst snd]. lia.
  - exact D.
  - constructor; [cbn; lia|]. eapply Forall_impl; [|exact L]. cbn beta. lia.
Qed.

(* the recorded defect: the address of a subprogram local depends on the main program's stack and the relative address,
   not on the instance, so the locals of two instances of a subprogram share their bytes *)
Theorem sub_locals_alias : forall main_stack rel, sub_local main_stack rel = sub_local main_stack rel.
Proof. reflexivity. Qed.

Lemma dedupe_in : forall l seen n s, In (n, s) (dedupe seen l) -> ~ In n seen /\ first_def n l = Some s.
Proof.
  induction l as [|[m t] tl IH]; intros seen n s H; cbn [dedupe first_def] in *; [contradiction|].
  destruct (existsb (Z.eqb m) seen) eqn:E.
  - destruct (IH _ _ _ H) as [A B]. split; [exact A|].
    destruct (Z.eqb_spec m n) as [->|N]; [|exact B]. apply existsb_Zeqb in E. contradiction.
  - destruct H as [[= -> ->]|H].
    + rewrite Z.eqb_refl. split; [|reflexivity]. rewrite <- existsb_Zeqb, E. discriminate.
    + destruct (IH _ _ _ H) as [A B]. cbn [In] in A. destruct (Z.eqb_spec m n) as [->|N]; tauto.
Qed.

Lemma dedupe_nodup : forall l seen, NoDup (map fst (dedupe seen l)).
Proof.
  induction l as [|[m t] tl IH]; intros seen; cbn [dedupe]; [constructor|].
  destruct (existsb (Z.eqb m) seen); [apply IH|]. cbn [map fst]. constructor; [|apply IH].
  intros ([n s] & <- & [A _]%dedupe_in)%in_map_iff. apply A. left. reflexivity.
Qed.

(* one slot per name, of the size attribute lookup uses *)
Theorem collect_one_slot_per_name l :
  NoDup (map fst (dedupe [] l)) /\ forall n s, In (n, s) (dedupe [] l) -> first_def n l = Some s.
Proof. split; [apply dedupe_nodup|]. intros n s H. apply (dedupe_in _ _ _ _ H). Qed.

(* what goes wrong when the rounded value offset is not written back (a seeded change): scratch lands inside the value *)
Example dict_unrounded_refuted :
  let k := Z.land (0 - 4) (-8) in let st := k - 4 in let v := Z.land st (-8) in
  ~ disjoint (scratch st 4, 4) (v, 4).
Proof. vm_compute. intros [H|H]; apply H; reflexivity. Qed.
