From Verif Require Import Lib.Bits Gen.BitField.

Lemma fmask_bits pos bits i : 0 <= bits -> 0 <= i ->
  Z.testbit (fmask pos bits) i = (pos <=? i) && (i <? pos + bits).
Proof.
  intros Hb Hi. unfold fmask. rewrite Z.shiftl_spec by exact Hi.
  destruct (Z.leb_spec pos i); [rewrite Z.testbit_ones_nonneg by lia; lia|apply Z.testbit_neg_r; lia].
Qed.

Theorem set_field_bits b v pos bits i : 0 <= pos -> 0 <= bits -> 0 <= i ->
  Z.testbit (set_field b v pos bits) i = if (pos <=? i) && (i <? pos + bits) then Z.testbit v (i - pos) else Z.testbit b i.
Proof.
  intros Hp Hb Hi. unfold set_field.
  rewrite Z.lor_spec, !Z.land_spec, Z.lnot_spec, fmask_bits, Z.shiftl_spec by assumption.
  destruct ((pos <=? i) && (i <? pos + bits)); [apply orb_false_r|reflexivity].
Qed.

Lemma get_field_bits b pos bits i : 0 <= pos -> 0 <= bits -> 0 <= i ->
  Z.testbit (get_field b pos bits) i = (i <? bits) && Z.testbit b (i + pos).
Proof.
  intros Hp Hb Hi. unfold get_field. rewrite Z.shiftr_spec, Z.land_spec, fmask_bits, andb_comm by lia. f_equal. lia.
Qed.

Theorem set_flag_bits b t pos i : 0 <= pos -> 0 <= i ->
  Z.testbit (set_flag b t pos) i = if i =? pos then t else Z.testbit b i.
Proof.
  intros Hp Hi. unfold set_flag. destruct t.
  - rewrite set_bit_bits by exact Hp. destruct (i =? pos); [apply orb_true_r|apply orb_false_r].
  - rewrite clear_bit_bits by assumption. destruct (i =? pos); [apply andb_false_r|apply andb_true_r].
Qed.
