From Verif Require Import Gen.Packet.

Lemma pkt_pack_length f v : length (pack f v) = pf_n f.
Proof. unfold pack. destruct (pf_order f =? 2); rewrite ?rev_length; apply le_bytes_length. Qed.

Lemma pkt_pack_is_byte f v : Forall is_byte (pack f v).
Proof. unfold pack. destruct (pf_order f =? 2); [apply Forall_rev|]; apply le_bytes_is_byte. Qed.

(* unpacking bytes is packing their little-endian value and reading the result little-endian:
   both directions apply the same permutation of the bytes *)
Lemma unpack_u_via_pack f bs : length bs = pf_n f -> Forall is_byte bs -> unpack_u f bs = le_val (pack f (le_val bs)).
Proof. intros L B. unfold unpack_u, pack. rewrite le_bytes_le_val by assumption. now destruct (pf_order f =? 2). Qed.

(* the END instruction leaves the value whose little-endian bytes are the packed ones *)
Lemma end_insn_pack f v : end_insn f v = le_val (pack f v).
Proof.
  unfold end_insn, pack, bswap. destruct (pf_order f =? 2); [now rewrite le_bytes_mod|].
  symmetry. apply le_val_le_bytes.
Qed.

(* the generator emits END only where `swaps`; elsewhere it would change nothing: native order, or a single byte *)
Lemma noswap_pack f v : swaps f = false -> pack f v = le_bytes (pf_n f) v.
Proof.
  unfold swaps, pack. intros H. destruct (Z.eqb_spec (pf_order f) 0) as [->|_]; [reflexivity|].
  destruct (Nat.eqb_spec (pf_n f) 1) as [->|_]; [|discriminate]. now destruct (pf_order f =? 2).
Qed.

(* the register after the load sequence holds struct.unpack's unsigned value *)
Theorem code_load_spec f bs : length bs = pf_n f -> Forall is_byte bs ->
  code_load f bs = unpack_u f bs /\ 0 <= code_load f bs < 256 ^ Z.of_nat (pf_n f).
Proof.
  intros L B. rewrite (unpack_u_via_pack f bs L B).
  assert (E : code_load f bs = le_val (pack f (le_val bs))).
  { unfold code_load. destruct (swaps f) eqn:S; [apply end_insn_pack|].
    rewrite noswap_pack, le_bytes_le_val by assumption. reflexivity. }
  split; [exact E|]. rewrite E, <- (pkt_pack_length f (le_val bs)). apply le_val_bound, pkt_pack_is_byte.
Qed.

(* the bytes stored are struct.pack's *)
Theorem code_store_spec f v : code_store_bytes f v = pack f v.
Proof.
  unfold code_store_bytes. rewrite le_bytes_mod. destruct (swaps f) eqn:S; [|symmetry; apply noswap_pack, S].
  rewrite end_insn_pack. apply le_bytes_le_val; [apply pkt_pack_length|apply pkt_pack_is_byte].
Qed.

Theorem pkt_unpack_pack f v : (0 < pf_n f)%nat ->
  (if pf_signed f then - 2 ^ (8 * Z.of_nat (pf_n f) - 1) <= v < 2 ^ (8 * Z.of_nat (pf_n f) - 1)
   else 0 <= v < 256 ^ Z.of_nat (pf_n f)) ->
  unpack f (pack f v) = v.
Proof.
  intros Hn Hr.
  assert (E : unpack_u f (pack f v) = v mod 256 ^ Z.of_nat (pf_n f)).
  { unfold unpack_u, pack. destruct (pf_order f =? 2); rewrite ?rev_involutive; apply le_val_le_bytes. }
  unfold unpack. rewrite E. destruct (pf_signed f); [apply sx_mod; assumption|apply Z.mod_small, Hr].
Qed.
