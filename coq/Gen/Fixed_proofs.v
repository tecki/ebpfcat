From Verif Require Import Gen.Fixed.

Lemma div_eq n d m e : 0 < d -> 0 < e -> n * e = m * d -> n / d = m / e.
Proof.
  intros Hd He H. rewrite <- (Z.div_mul_cancel_r n d e) by lia. rewrite H.
  rewrite (Z.mul_comm d e). apply Z.div_mul_cancel_r; lia.
Qed.

(* Each operation theorem compares an integer computation of elab_op with the
   floor of a rational.  `fixed_unfold` unfolds the rational side into one
   quotient of integers (numerator and denominator of qop on rep, times the
   scale of drop) and leaves an integer equation `lhs = num / den`, e.g.
     fixed * fixed:  A * B / 100000 = 100000 * (A * B) / (100000 * 100000)
     int + fixed:    A + B * 100000 = 100000 * (A * 1 + B * 100000) / 100000
   `quotient_eq` closes it: two quotients by cross-multiplication (the first
   sample), an integer against a quotient that is exact (the second); `ring`
   alone closes only the goals with no division left to reason about: int/int,
   or the same quotient on both sides. *)
Ltac fixed_unfold :=
  unfold op_value, op_fixed, drop, qop, rep, elab_op, scale, FB; cbn [negb andb orb Bool.eqb fst snd exact];
  unfold Qdiv, Qminus; unfold Qinv, Qmult, Qplus, Qopp, inject_Z, Qfloor; cbn [Qnum Qden];
  rewrite ?Pos.mul_1_l, ?Pos.mul_1_r, ?Pos2Z.inj_mul, ?Z.div_1_r.

Ltac quotient_eq := first [ ring | apply div_eq; [lia|lia|ring] | apply Z.div_unique_exact; [lia|ring] ].

Lemma exact_scale e k : exact (scale e k) = exact e * k.
Proof. destruct e; reflexivity. Qed.
