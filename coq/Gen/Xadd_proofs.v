From Verif Require Import Gen.Xadd.

Lemma total_app a b : total (a ++ b) = total a + total b.
Proof. unfold total. induction a as [|x a IH]; cbn [app fold_right]; lia. Qed.

Lemma total_nil ls : Forall (fun l => l = []) ls -> total ls = 0.
Proof. unfold total. induction 1 as [|x l -> _ IH]; cbn [fold_right adds]; lia. Qed.

Lemma interleave_adds ls m : interleave ls m -> adds m = total ls.
Proof.
  induction 1 as [ls H|pre e rest post m _ IH]; [symmetry; apply total_nil, H|].
  rewrite total_app in *. unfold total in *. cbn [fold_right] in *. destruct e; cbn [adds]; lia.
Qed.

(* the cell after any events: every Add has been added, every other event has left it alone *)
Lemma fold_apply n : forall m c, 0 <= c < 256 ^ Z.of_nat n ->
  fold_left (apply_ev n) m c = (c + adds m) mod 256 ^ Z.of_nat n.
Proof.
  induction m as [|e m IH]; intros c Hc; cbn [fold_left adds]; [rewrite Z.add_0_r, Z.mod_small; auto|].
  destruct e; cbn [apply_ev]; try exact (IH c Hc).
  rewrite IH by (apply Z.mod_pos_bound; lia). rewrite Zplus_mod_idemp_l. f_equal. lia.
Qed.
