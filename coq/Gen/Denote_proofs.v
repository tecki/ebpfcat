(* Every node of an expression is computed at a width, 2^32 or 2^64.  One ALU instruction is right modulo the
   width it is computed at when its operands are, for // % << >> inside `op_pre` (alu_at_ok); sign extension is
   two such shifts.  `ok` collects op_pre over the tree, `Inv` is that congruence for a node's register; impl_inv
   is the induction, and stored_exact cuts the congruence down to the destination, whose 256^n divides the width. *)
From Verif Require Import Lib.Bits Gen.Arith Gen.Denote.

Definition wbits (l : bool) : Z := if l then 64 else 32.
Lemma width_pow l : width l = 2 ^ wbits l.
Proof. destruct l; reflexivity. Qed.
Lemma width_pos l : 0 < width l.
Proof. destruct l; reflexivity. Qed.
Lemma width_le l : width l <= W64.
Proof. destruct l; discriminate. Qed.
Lemma wbits_pos l : 0 < wbits l.
Proof. destruct l; reflexivity. Qed.

Lemma mod_W64_width x l : (x mod W64) mod width l = x mod width l.
Proof. destruct l; [apply Zmod_mod|apply (mod_mod_mult x W32 W32); reflexivity]. Qed.

Lemma cong_W64 l a b : cong W64 a b -> cong (width l) a b.
Proof. unfold cong. intros H. rewrite <- (mod_W64_width a), <- (mod_W64_width b), H. reflexivity. Qed.

(* signed reading of a w-bit value, as `alu` takes it for ARSH.  By conversion (the constants compute)
   `sx64 a` is `sx 8 a` and `sx32 a` is `sx 4 (a mod W32)` of Lib/Bytes.v: no lemma states it, sxw_mod
   hands sx_mod over by `exact`. *)
Definition sxw (l : bool) (a : Z) : Z := if l then sx64 a else sx32 a.
Lemma sxw_mod l x : - (width l / 2) <= x < width l / 2 -> sxw l (x mod width l) = x.
Proof.
  intros H. destruct l; cbn [sxw].
  - exact (sx_mod 8 x ltac:(lia) H).
  - unfold sx32. rewrite Zmod_mod. exact (sx_mod 4 x ltac:(lia) H).
Qed.

Lemma sxw_cong l v x : cong (width l) v x -> - (width l / 2) <= x < width l / 2 -> 0 <= v < W64 -> sxw l v = x.
Proof.
  intros C F R. rewrite <- (sxw_mod l x F), <- C. destruct l; cbn [sxw width].
  - rewrite Z.mod_small by exact R. reflexivity.
  - unfold sx32. rewrite Zmod_mod. reflexivity.
Qed.

Lemma alu_range code l a b : 0 <= a < width l -> 0 <= b < width l -> 0 <= alu code l a b < width l.
Proof.
  intros Ra Rb. pose proof (wbits_pos l) as Bp. unfold alu.
  change (if l then W64 else W32) with (width l). change (if l then 64 else 32) with (wbits l). rewrite width_pow in *.
  assert (M : forall z, 0 <= z mod 2 ^ wbits l < 2 ^ wbits l) by (intros z; apply Z.mod_pos_bound; lia).
  assert (D : forall d, 0 < d -> 0 <= a / d <= a).
  { intros d Hd. split; [apply Z.div_pos; lia|apply Z.div_le_upper_bound; nia]. }
  destruct (code =? 0); [apply M|]. destruct (code =? 1); [apply M|]. destruct (code =? 2); [apply M|].
  destruct (code =? 3). { destruct (Z.eqb_spec b 0); [lia|]. specialize (D b). lia. }
  destruct (code =? 4); [apply lor_range; lia|].
  destruct (code =? 5); [apply land_range; lia|].
  destruct (code =? 6); [apply M|].
  destruct (code =? 7).
  { rewrite Z.shiftr_div_pow2 by (apply Z.mod_pos_bound; exact Bp). specialize (D (2 ^ (b mod wbits l))). lia. }
  destruct (code =? 8); [apply M|].
  destruct (code =? 9). { destruct (Z.eqb_spec b 0); [lia|]. pose proof (Z.mod_pos_bound a b). lia. }
  destruct (code =? 10); [apply lxor_range; lia|].
  destruct (code =? 11); [lia|]. destruct (code =? 12); [apply M|]. lia.
Qed.

Lemma alu_at_range code l a b : 0 <= alu_at code l a b < width l.
Proof. unfold alu_at. apply alu_range; apply Z.mod_pos_bound; apply width_pos. Qed.

Lemma alu_at_W64 code l a b : 0 <= alu_at code l a b < W64.
Proof. pose proof (alu_at_range code l a b). pose proof (width_le l). lia. Qed.

(* the meaning of a binary node: exact (EBin op a b) is exact_bin op (exact a) (exact b) *)
Definition exact_bin (op : binop) (x y : Z) : Z :=
  match op with
  | OAdd => x + y | OSub => x - y | OMul => x * y | ODiv => x / y | OMod => x mod y
  | OAnd => Z.land x y | OOr => Z.lor x y | OXor => Z.lxor x y | OLsh => x * 2 ^ y | ORsh => x / 2 ^ y
  end.

Definition op_pre (op : binop) (sg : bool) (l : bool) (x y : Z) : Prop :=
  match op with
  | ODiv | OMod => 0 <= x < width l /\ 0 < y < width l
  | ORsh => (if sg then - (width l / 2) <= x < width l / 2 else 0 <= x < width l) /\ 0 <= y < wbits l
  | OLsh => 0 <= y < wbits l
  | _ => True
  end.

Lemma alu_at_ok op sg l va vb x y :
  cong (width l) va x -> cong (width l) vb y -> op_pre op sg l x y ->
  cong (width l) (alu_at (alu_code op sg) l va vb) (exact_bin op x y).
Proof.
  intros Ha Hb Hp.
  (* the instruction sees x and y reduced to the width *)
  unfold alu_at. rewrite Ha, Hb. clear va vb Ha Hb.
  pose proof (cong_mod (width l) x) as Cx. pose proof (cong_mod (width l) y) as Cy.
  assert (Bit : forall f g, (forall a b n, Z.testbit (f a b) n = g (Z.testbit a n) (Z.testbit b n)) ->
                 g false false = false -> cong (width l) (f (x mod width l) (y mod width l)) (f x y)).
  { intros f g Hf Hg. rewrite width_pow in *. apply (cong_bitop f g Hf Hg); [destruct l; discriminate|exact Cx|exact Cy]. }
  assert (Wbits : wbits l < width l) by (destruct l; reflexivity).
  destruct op; cbn [alu_code exact_bin op_pre] in *; unfold alu; cbn [Z.eqb Pos.eqb];
    change (if l then W64 else W32) with (width l); change (if l then 64 else 32) with (wbits l).
  - apply cong_mod_l, cong_add; assumption.
  - apply cong_mod_l, cong_sub; assumption.
  - apply cong_mod_l, cong_mul; assumption.
  - (* DIV *) rewrite !Z.mod_small by lia. destruct (Z.eqb_spec y 0); [lia|reflexivity].
  - (* MOD *) rewrite !Z.mod_small by lia. destruct (Z.eqb_spec y 0); [lia|reflexivity].
  - exact (Bit Z.land andb Z.land_spec eq_refl).
  - exact (Bit Z.lor orb Z.lor_spec eq_refl).
  - exact (Bit Z.lxor xorb Z.lxor_spec eq_refl).
  - (* LSH *) rewrite !(Z.mod_small y), Z.shiftl_mul_pow2 by lia.
    apply cong_mod_l, cong_mul; [exact Cx|reflexivity].
  - (* RSH / ARSH *) destruct Hp as [Hx Hy]. rewrite !(Z.mod_small y) by lia.
    destruct sg; cbn [Z.eqb Pos.eqb]; rewrite Z.shiftr_div_pow2 by lia.
    + fold (sxw l (x mod width l)). rewrite (sxw_mod l x Hx). apply cong_mod.
    + rewrite Z.mod_small by exact Hx. reflexivity.
Qed.

Lemma neg_at_ok l va x : cong (width l) va x -> cong (width l) (alu_at 8 l va 0) (- x).
Proof. intros Ha. apply cong_mod_l, cong_opp, cong_mod_l. exact Ha. Qed.

(* (v << sh) >> sh, arithmetic, with sh = width - 8 n: the low n bytes of v, sign-extended.
   Both shifts are instances of alu_at_ok: the left shift leaves a value congruent to
   s * 2^sh, which is in the signed range, so the right shift divides it exactly. *)
Lemma sign_extend_ok l n v : (0 < n)%nat -> 8 * Z.of_nat n <= wbits l ->
  let sh := wbits l - 8 * Z.of_nat n in
  cong (width l) (alu_at 12 l (alu_at 6 l v sh) sh) (sx n (v mod 256 ^ Z.of_nat n)).
Proof.
  intros Hn Hle sh. set (s := sx n (v mod 256 ^ Z.of_nat n)).
  assert (Hsh : 0 <= sh < wbits l) by lia.
  assert (P : 0 < 2 ^ sh) by (apply Z.pow_pos_nonneg; lia).
  assert (W : width l = 256 ^ Z.of_nat n * 2 ^ sh).
  { rewrite width_pow, pow256, <- Z.pow_add_r by lia. f_equal. lia. }
  assert (W2 : width l / 2 = 2 ^ (8 * Z.of_nat n - 1) * 2 ^ sh).
  { symmetry. apply Z.div_unique_exact; [lia|]. rewrite W, pow256, (pow2_half (8 * Z.of_nat n)) by lia. ring. }
  assert (Cs : cong (width l) (v * 2 ^ sh) (s * 2 ^ sh)).
  { rewrite W. apply cong_mul_r, cong_sym. eapply cong_trans; [apply sx_cong|apply cong_mod]. }
  assert (Rs : - (width l / 2) <= s * 2 ^ sh < width l / 2).
  { pose proof (sx_bounds n (v mod 256 ^ Z.of_nat n) Hn (Z.mod_pos_bound _ _ (pow256_pos n))) as Bs. fold s in Bs.
    rewrite W2. nia. }
  rewrite <- (Z.div_mul s (2 ^ sh)) by lia.
  apply (alu_at_ok ORsh true l _ sh (s * 2 ^ sh) sh); [|reflexivity|exact (conj Rs Hsh)].
  apply (cong_trans _ _ (v * 2 ^ sh)); [|exact Cs].
  apply (alu_at_ok OLsh false l v sh v sh); [reflexivity|reflexivity|exact Hsh].
Qed.

(* The precondition of C01: the operands are well formed, and the operands of
   // % << >> abs lie where the emitted instruction, at the width the node is
   computed at, gives the exact result (op_pre). *)
Fixpoint ok (e : expr) (req : option bool) : Prop :=
  match e with
  | EConst v => - 9223372036854775808 <= v < W64
  | EReg c l sg => 0 <= c < W64 /\ (l = false -> c < (if sg then 2147483648 else W32))
  | EVar raw size sg => In size [1; 2; 4; 8]%nat /\ 0 <= raw < 256 ^ Z.of_nat size
  | EBin op a b =>
      ok a req /\
      let l := eff req (snd (impl a req)) in
      ok b (Some l) /\ op_pre op (esigned a) l (exact a) (exact b)
  | ENeg a => ok a req
  | EAbs a =>
      ok a req /\
      let l := eff req (snd (impl a req)) in
      (l = true \/ esigned a = true) /\ - (width l / 2) <= exact a < width l / 2
  end.

Definition Inv (e : expr) (req : option bool) : Prop :=
  let l := eff req (snd (impl e req)) in
  0 <= fst (impl e req) < W64 /\ cong (width l) (fst (impl e req)) (exact e).

Lemma sx_range size raw : In size [1; 2; 4; 8]%nat -> 0 <= raw < 256 ^ Z.of_nat size ->
  cong W64 raw (sx size raw) \/ True.
Proof. auto. Qed.

Lemma small_constant_spec b imm : small_constant b = Some imm -> b = EConst imm /\ -2147483648 <= imm < 2147483648.
Proof.
  destruct b; cbn; try discriminate. destruct (Z.leb_spec (-2147483648) v), (Z.ltb_spec v 2147483648); cbn; try discriminate.
  intros [= <-]. split; [reflexivity|lia].
Qed.

(* a small constant as immediate operand: the value evaluating it would give *)
Lemma small_constant_impl b imm req : small_constant b = Some imm -> impl b req = (imm mod W64, false).
Proof.
  intros H. destruct (small_constant_spec b imm H) as [-> R]. cbn [impl].
  replace ((-2147483648 <=? imm) && (imm <? 4294967296)) with true by lia. reflexivity.
Qed.

Lemma eff_idem req fl : eff req (eff req fl) = eff req fl.
Proof. destruct req; reflexivity. Qed.

(* impl at the inner nodes, in terms of the components of the operands' results *)
Lemma impl_bin op a b req :
  impl (EBin op a b) req =
  let l := eff req (snd (impl a req)) in
  (alu_at (alu_code op (esigned a)) l (fst (impl a req)) (fst (impl b (Some l))), l).
Proof.
  cbn [impl]. destruct (impl a req) as [va la]. cbn [fst snd].
  destruct (small_constant b) as [imm|] eqn:Sb; [rewrite (small_constant_impl b imm _ Sb)|destruct (impl b _)]; reflexivity.
Qed.

Lemma var_inv raw size sg req : ok (EVar raw size sg) req -> Inv (EVar raw size sg) req.
Proof.
  intros [Hs Hr]. unfold Inv. cbn [impl fst snd exact].
  set (l := match req with Some true => true | _ => false end).
  assert (R64 : 0 <= raw < W64).
  { destruct Hs as [<-|[<-|[<-|[<-|[]]]]]; unfold W64; cbn in Hr; lia. }
  destruct sg; cbn [andb leaf_value]; [|split; [exact R64|reflexivity]].
  destruct (Nat.leb size 2 || l && Nat.eqb size 4) eqn:Ext.
  - (* sign-extended by shifts at width l; the size is below 8 *)
    assert (Hc : (0 < size)%nat /\ 8 * Z.of_nat size <= wbits l /\ eff req (Nat.eqb size 8) = l).
    { subst l. destruct Hs as [<-|[<-|[<-|[<-|[]]]]], req as [[|]|]; try discriminate Ext; cbn; lia. }
    destruct Hc as (Hn & Hle & ->). split; [apply alu_at_W64|].
    pose proof (sign_extend_ok l size raw Hn Hle) as H. rewrite (Z.mod_small raw) in H by exact Hr. exact H.
  - (* loaded as is: 8 bytes, or 4 bytes at 32 bits *)
    split; [exact R64|]. apply cong_sym.
    assert (Hc : (size = 8 \/ size = 4 /\ eff req false = false)%nat).
    { subst l. destruct Hs as [<-|[<-|[<-|[<-|[]]]]], req as [[|]|]; try discriminate Ext; auto. }
    destruct Hc as [->|[-> E]]; cbn [Nat.eqb].
    + apply cong_W64, (sx_cong 8).
    + rewrite E. apply (sx_cong 4).
Qed.

Theorem impl_inv : forall e req, ok e req -> Inv e req.
Proof.
  induction e as [v|c l sg|raw size sg|op a IHa b IHb|a IHa|a IHa]; intros req Hok.
  - (* constant *)
    split; [apply Z.mod_pos_bound; reflexivity|]. apply cong_W64, cong_mod.
  - (* register *)
    destruct Hok as [Hc Hl]. split; [apply Z.mod_pos_bound; reflexivity|].
    cbn [impl fst snd exact]. unfold reg_value. apply cong_W64. destruct l.
    + destruct sg; [apply cong_sym, (sx_cong 8)|reflexivity].
    + (* a 32-bit register inside `ok` holds its value *)
      specialize (Hl eq_refl). replace (if sg then sx32 c else c mod W32) with c; [apply cong_mod|].
      symmetry. destruct sg; [|apply Z.mod_small; lia].
      apply (sxw_cong false c c); [reflexivity|unfold width, W32; lia|exact Hc].
  - apply var_inv. exact Hok.
  - (* binary *)
    destruct Hok as (Ha & Hb & Hp). destruct (IHa req Ha) as [_ Ca]. destruct (IHb _ Hb) as [_ Cb].
    unfold Inv. rewrite impl_bin. cbn [fst snd eff] in *. rewrite eff_idem.
    split; [apply alu_at_W64|apply alu_at_ok; assumption].
  - (* negation *)
    destruct (IHa req Hok) as [_ Ca]. unfold Inv. cbn [impl exact].
    destruct (impl a req) as [va la]. cbn [fst snd] in *. rewrite eff_idem.
    split; [apply alu_at_W64|apply neg_at_ok, Ca].
  - (* abs *)
    destruct Hok as (Ha & Hl & Hr). destruct (IHa req Ha) as [Ra Ca]. unfold Inv. cbn [impl exact].
    destruct (impl a req) as [va la]. cbn [fst snd] in *.
    pose proof (eff_idem req la) as Ei. set (l := eff req la) in *.
    assert (T : let r := if exact a <? 0 then alu_at 8 l va 0 else va in
                0 <= r < W64 /\ cong (width l) r (Z.abs (exact a))).
    { cbn zeta. destruct (Z.ltb_spec (exact a) 0).
      - rewrite Z.abs_neq by lia. split; [apply alu_at_W64|apply neg_at_ok, Ca].
      - rewrite Z.abs_eq by lia. split; assumption. }
    (* inside `ok` the sign test reads the exact value, at either width *)
    destruct l.
    + cbn [orb fst snd]. rewrite Ei, Z.mod_small, (sxw_cong true va _ Ca Hr Ra : sx64 va = _) by exact Ra. exact T.
    + destruct Hl as [Hl| ->]; [discriminate|]. cbn [negb orb fst snd].
      rewrite Ei, (sxw_cong false va _ Ca Hr Ra : sx32 va = _). exact T.
Qed.

(* The property for one assignment: the n-byte destination receives the exact
   value reduced to its size. *)
Theorem stored_exact e n : In n [1; 2; 4; 8]%nat -> ok e (Some (Nat.eqb n 8)) ->
  stored e n = exact e mod 256 ^ Z.of_nat n.
Proof.
  intros Hn Hok. destruct (impl_inv e _ Hok) as [_ C]. cbn [eff] in C.
  (* the width computed at is a multiple of 256^n *)
  destruct Hn as [<-|[<-|[<-|[<-|[]]]]].
  - (* W32 = 256^1 * 256^3 *) apply (cong_divide _ (256 ^ 3)); [reflexivity|reflexivity|exact C].
  - (* W32 = 256^2 * 256^2 *) apply (cong_divide _ (256 ^ 2)); [reflexivity|reflexivity|exact C].
  - (* W32 = 256^4 *) exact C.
  - (* W64 = 256^8 *) exact C.
Qed.
