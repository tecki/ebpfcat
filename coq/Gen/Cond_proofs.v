From Verif Require Import Gen.Arith Gen.Denote_proofs Gen.Cond.

Definition fits_s (w x : Z) : Prop := - (w / 2) <= x < w / 2.

(* the left operand re-extended from 32 to 64 bits by << 32, >> 32 (arithmetic) *)
Lemma reextend v x : cong W32 v x -> fits_s W32 x -> 0 <= v < W64 ->
  sx64 (alu_at 12 true (alu_at 6 true v 32) 32) = x.
Proof.
  intros C F R. apply (sxw_cong true _ x); [|unfold fits_s, W32 in F; unfold width, W64; lia|apply alu_at_W64].
  (* what the shifts extend is sx 4 (v mod 256^4), that is sx32 v, hence x *)
  rewrite <- (sxw_cong false v x C F R : sx32 v = x). apply (sign_extend_ok true 4 v); [lia|discriminate].
Qed.

(* a signed comparison reads both operands as signed numbers of the width
   la || rb; the left one, computed at width la, is re-extended when that is
   narrower *)
Lemma signed_atom op la rb va vb x y :
  0 <= va < W64 -> cong (width la) va x -> fits_s (width la) x ->
  0 <= vb < W64 -> cong (width (la || rb)) vb y -> fits_s (width (la || rb)) y ->
  (if negb la && negb rb then cmp_exact op (sx32 va) (sx32 vb)
   else if negb la then cmp_exact op (sx64 (alu_at 12 true (alu_at 6 true va 32) 32)) (sx64 vb)
   else cmp_exact op (sx64 va) (sx64 vb)) = cmp_exact op x y.
Proof.
  intros Ra Ca Fa Rb Cb Fb. pose proof (sxw_cong (la || rb) vb y Cb Fb Rb) as Eb.
  destruct la; [|destruct rb]; cbn [negb andb orb sxw] in *; rewrite Eb.
  - rewrite (sxw_cong true va x Ca Fa Ra : sx64 va = x). reflexivity.
  - rewrite (reextend va x Ca Fa Ra). reflexivity.
  - rewrite (sxw_cong false va x Ca Fa Ra : sx32 va = x). reflexivity.
Qed.

(* the upper half of a register holding a 32-bit result is zero *)
Definition clean (e : expr) (req : option bool) : Prop :=
  fst (impl e req) < width (eff req (snd (impl e req))).
(* where C03_clean can tell from the top node alone: ENeg is signed anyway, EAbs hands its operand's register on
   when that is not negative, so it would need the operand clean *)
Definition plain (e : expr) : bool := match e with ENeg _ | EAbs _ => false | _ => true end.

Lemma clean_value e req : ok e req -> clean e req ->
  0 <= exact e < width (eff req (snd (impl e req))) -> fst (impl e req) = exact e.
Proof.
  intros H C F. destruct (impl_inv e req H) as [R I]. unfold clean in C.
  unfold cong in I. rewrite !Z.mod_small in I by lia. exact I.
Qed.

(* when both operands are unsigned the jump looks at the two registers as
   64-bit numbers (F: a comparison, a bit test); they hold the exact values *)
Lemma unsigned_atom {A} (F : Z -> Z -> A) a b :
  let la := snd (impl a None) in
  let reqb := if la then Some true else None in
  ok a None -> (small_constant b = None -> ok b reqb) ->
  clean a None -> (small_constant b = None -> clean b reqb) ->
  let rb := match small_constant b with Some _ => false | None => snd (impl b reqb) end in
  0 <= exact a < width la -> 0 <= exact b < width (la || rb) ->
  (let '(va, la) := impl a None in
   let '(vb, _) := match small_constant b with
                   | Some imm => (imm mod W64, false)
                   | None => impl b (if la then Some true else None)
                   end in
   F va vb) = F (exact a) (exact b).
Proof.
  intros la reqb Ha Hb Ca Cb rb Fa Fb. rewrite <- (clean_value a None Ha Ca Fa).
  subst la reqb rb. destruct (impl a None) as [va la]. cbn [fst snd] in *.
  destruct (small_constant b) as [imm|] eqn:Sb.
  - destruct (small_constant_spec _ _ Sb) as [-> _]. cbn [exact] in *.
    rewrite Z.mod_small; [reflexivity|]. rewrite orb_false_r in Fb. pose proof (width_le la). lia.
  - rewrite <- (clean_value b _ (Hb eq_refl) (Cb eq_refl)); [destruct (impl b _); reflexivity|].
    destruct la; exact Fb.
Qed.
