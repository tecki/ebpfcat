(* `cong w` is the standard library's Zdiv.eqm w under the name the statements of the generator proofs use;
   cong_refl ... cong_opp are its eqm_refl, eqm_sym, eqm_trans, Zmod_eqm and the Proper instances Zplus_eqm,
   Zminus_eqm, Zmult_eqm, Zopp_eqm, as implications that `apply` can use.  What the library lacks: changing the
   modulus (cong_mul_r, cong_divide), `sx n` as the identity modulo 256^n, bitwise operations modulo 2^k. *)
From Verif Require Import Lib.Bytes Lib.Bits.

Definition cong (w a b : Z) : Prop := a mod w = b mod w.

Lemma cong_refl w a : cong w a a.
Proof. exact (eqm_refl w a). Qed.
Lemma cong_sym w a b : cong w a b -> cong w b a.
Proof. exact (eqm_sym w a b). Qed.
Lemma cong_trans w a b c : cong w a b -> cong w b c -> cong w a c.
Proof. exact (eqm_trans w a b c). Qed.
Lemma cong_mod w a : cong w (a mod w) a.
Proof. exact (Zmod_eqm w a). Qed.
Lemma cong_mod_l w a b : cong w a b -> cong w (a mod w) b.
Proof. apply cong_trans, cong_mod. Qed.

Lemma cong_add w a a' b b' : cong w a a' -> cong w b b' -> cong w (a + b) (a' + b').
Proof. intros Ha Hb. exact (Zplus_eqm w a a' Ha b b' Hb). Qed.
Lemma cong_sub w a a' b b' : cong w a a' -> cong w b b' -> cong w (a - b) (a' - b').
Proof. intros Ha Hb. exact (Zminus_eqm w a a' Ha b b' Hb). Qed.
Lemma cong_mul w a a' b b' : cong w a a' -> cong w b b' -> cong w (a * b) (a' * b').
Proof. intros Ha Hb. exact (Zmult_eqm w a a' Ha b b' Hb). Qed.
Lemma cong_opp w a a' : cong w a a' -> cong w (- a) (- a').
Proof. exact (Zopp_eqm w a a'). Qed.

Lemma cong_mul_r w c a b : cong w a b -> cong (w * c) (a * c) (b * c).
Proof. unfold cong. intros H. rewrite !Zmult_mod_distr_r, H. reflexivity. Qed.

Lemma mod_mod_mult a w k : 0 < w -> 0 < k -> (a mod (w * k)) mod w = a mod w.
Proof.
  intros Hw Hk. symmetry. apply Znumtheory.Zmod_div_mod; [exact Hw|apply Z.mul_pos_pos; assumption|apply Z.divide_factor_l].
Qed.

Lemma cong_divide w k a b : 0 < w -> 0 < k -> cong (w * k) a b -> cong w a b.
Proof.
  unfold cong. intros Hw Hk H.
  rewrite <- (mod_mod_mult a w k), <- (mod_mod_mult b w k), H by lia. reflexivity.
Qed.

Lemma sx_cong n z : cong (256 ^ Z.of_nat n) (sx n z) z.
Proof.
  unfold sx, cong. rewrite pow256. destruct (z <? _); [reflexivity|].
  apply (Z_mod_plus_full z (-1)).
Qed.

Lemma cong_bitop (op : Z -> Z -> Z) (f : bool -> bool -> bool) :
  (forall a b n, Z.testbit (op a b) n = f (Z.testbit a n) (Z.testbit b n)) -> f false false = false ->
  forall k a a' b b', 0 <= k -> cong (2 ^ k) a a' -> cong (2 ^ k) b b' -> cong (2 ^ k) (op a b) (op a' b').
Proof.
  unfold cong. intros Hop Hf k a a' b b' Hk Ha Hb. rewrite !(bitop_mod_pow2 op f Hop Hf), Ha, Hb by assumption. reflexivity.
Qed.
