(* Memory accesses and byte swap of the instruction set model Ebpf/Isa.v. *)
From Verif Require Import Ebpf.Isa.

Lemma read_bytes_ok l off n : 0 <= off -> off + Z.of_nat n <= zlen l ->
  read_bytes l off n = Some (firstn n (skipn (Z.to_nat off) l)).
Proof.
  intros H0 H1. unfold read_bytes.
  destruct (Z.ltb_spec off 0), (Z.ltb_spec (zlen l) (off + Z.of_nat n)); try lia. reflexivity.
Qed.

Lemma write_bytes_ok l off b : 0 <= off -> off + zlen b <= zlen l ->
  write_bytes l off b = Some (firstn (Z.to_nat off) l ++ b ++ skipn (Z.to_nat off + length b) l).
Proof.
  intros H0 H1. unfold write_bytes.
  destruct (Z.ltb_spec off 0), (Z.ltb_spec (zlen l) (off + zlen b)); try lia. reflexivity.
Qed.

Lemma write_bytes_inv l off b l' : write_bytes l off b = Some l' ->
  0 <= off /\ off + zlen b <= zlen l /\ l' = firstn (Z.to_nat off) l ++ b ++ skipn (Z.to_nat off + length b) l.
Proof.
  unfold write_bytes.
  destruct (Z.ltb_spec off 0), (Z.ltb_spec (zlen l) (off + zlen b)); try discriminate. intros [= <-]. auto.
Qed.

Theorem write_bytes_frame l off b l' : write_bytes l off b = Some l' ->
  length l' = length l /\
  read_bytes l' off (length b) = Some b /\
  forall i, (Z.of_nat i < off \/ off + zlen b <= Z.of_nat i) -> nth i l' 0 = nth i l 0.
Proof.
  intros (H0 & H1 & ->)%write_bytes_inv. unfold zlen in *.
  assert (Hin : (Z.to_nat off + length b <= length l)%nat) by lia.
  split; [now apply splice_length|]. split.
  - rewrite read_bytes_ok; [|lia|unfold zlen; rewrite splice_length; lia].
    rewrite skipn_app_exact' by (rewrite firstn_length; lia). now rewrite firstn_app_exact.
  - intros i Hi. apply nth_splice_outside; lia.
Qed.

Lemma bswap_le_val n bs : length bs = n -> Forall is_byte bs -> bswap n (le_val bs) = le_val (rev bs).
Proof. intros L B. unfold bswap. now rewrite le_bytes_le_val. Qed.

Lemma le_bytes_bswap n v : le_bytes n (bswap n v) = rev (le_bytes n v).
Proof.
  unfold bswap. apply le_bytes_le_val; [now rewrite rev_length, le_bytes_length|].
  apply Forall_rev, le_bytes_is_byte.
Qed.
