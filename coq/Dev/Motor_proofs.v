From Verif Require Import Dev.Motor.

(* both are Lib.Bytes.sx_mod: a value in the signed range survives being stored in n bytes and read back *)
Lemma s64_id z : - 9223372036854775808 <= z < 9223372036854775808 -> s64 z = z.
Proof. apply (sx_mod 8). lia. Qed.
Lemma s16_id z : - 32768 <= z < 32768 -> s16 z = z.
Proof. apply (sx_mod 2). lia. Qed.

Theorem motor_correct i : pre i -> motor_impl i = motor_spec i.
Proof.
  unfold pre, motor_impl, motor_spec, clamp, W32. intros (Hg & Ht & Ha & Hv & Hp & Hpv & Hd).
  set (d := gain i * (target i - pos i)) in *. clearbody d.
  rewrite (s64_id d), (s64_id (prev i + acc i)), (s64_id (- vmax i)) by lia.
  (* each comparison of the program is a min or a max, so every intermediate value stays small *)
  set (st1 := if prev i + acc i <? d then _ else _).
  assert (E1 : st1 = Z.min (prev i + acc i) d) by (subst st1; destruct (Z.ltb_spec (prev i + acc i) d); lia).
  rewrite (s64_id (st1 + acc i)), (s64_id (prev i - acc i)) by lia.
  set (st2 := if st1 + acc i <? prev i then _ else _).
  assert (E2 : st2 = Z.max (prev i - acc i) st1) by (subst st2; destruct (Z.ltb_spec (st1 + acc i) (prev i)); lia).
  set (st3 := if vmax i <? st2 then _ else _).
  assert (E3 : st3 = Z.min (vmax i) st2) by (subst st3; destruct (Z.ltb_spec (vmax i) st2); lia).
  set (st4 := if st3 <? - vmax i then _ else _).
  assert (E4 : st4 = Z.max (- vmax i) st3) by (subst st4; destruct (Z.ltb_spec st3 (- vmax i)); lia).
  rewrite (s16_id st4) by lia. rewrite E4, E3, E2, E1.
  destruct (low i && _); [|reflexivity]. destruct (high i); reflexivity.
Qed.

(* the consequences named by the property hold of the control law itself, whatever the widths of the machine: clamping
   to [-vmax, vmax], which contains prev, moves the value no further from prev *)
Lemma spec_safe i : 0 <= acc i -> - vmax i <= prev i <= vmax i ->
  let v := motor_spec i in
  - vmax i <= v <= vmax i /\
  (low i = true -> 0 <= v) /\ (high i = true -> v <= 0) /\
  (v = 0 \/ - acc i <= v - prev i <= acc i).
Proof.
  intros Ha Hp. unfold motor_spec, clamp.
  destruct (low i && _) eqn:E1; [lia|]. destruct (high i && _) eqn:E2; [lia|].
  destruct (low i), (high i); cbn [andb] in E1, E2; lia.
Qed.
