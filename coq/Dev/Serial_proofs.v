(* Inv holds after any events (reachable_inv).  A write of the application only extends the pipe and `written`
   (inv_write).  One cycle is update (the device) followed by react (the terminal).  Each of the two keeps Inv
   (inv_update, inv_react), and in each the transmit and the receive direction touch different fields, so each is
   described one direction at a time (update_tx, update_rx; the two halves of react_op). *)
From Verif Require Import Dev.Serial.

Definition pend (s : sys) : bool := negb (Bool.eqb (o_treq (s_dev s)) (t_tacc (s_term s))).
Definition chunk_ok (c : list Z) : Prop := (0 < length c <= chunk)%nat.

Record Inv (s : sys) : Prop := {
  (* device not yet connected: everything at rest *)
  i_rest : connected (s_dev s) = false ->
           lta (s_dev s) = false /\ lrr (s_dev s) = false /\ lra (s_dev s) = false /\ ltr (s_dev s) = false /\
           cur (s_dev s) = None /\ o_treq (s_dev s) = false /\ o_racc (s_dev s) = false /\ (t_phase (s_term s) <= 1)%nat;
  i_out : o_treq (s_dev s) = ltr (s_dev s) /\ o_racc (s_dev s) = lra (s_dev s);
  (* terminal before the end of initialisation: no traffic yet *)
  i_early : (t_phase (s_term s) < 2)%nat ->
            t_tacc (s_term s) = false /\ t_rreq (s_term s) = false /\ accepted s = [] /\ announced s = [] /\
            (t_iacc (s_term s) = match t_phase (s_term s) with O => false | _ => true end);
  i_late : (2 <= t_phase (s_term s))%nat -> t_iacc (s_term s) = false;
  (* transmit direction *)
  i_tx : concat (accepted s) ++ (if pend s then o_str (s_dev s) else []) ++ s_pipe s = written s;
  i_pend : pend s = true -> cur (s_dev s) = Some (o_str (s_dev s)) /\ lta (s_dev s) = t_tacc (s_term s) /\
                            chunk_ok (o_str (s_dev s));
  i_idle : pend s = false -> (cur (s_dev s) = None <-> lta (s_dev s) = t_tacc (s_term s));
  i_chunks : Forall chunk_ok (accepted s);
  (* receive direction *)
  i_rx1 : Bool.eqb (lrr (s_dev s)) (t_rreq (s_term s)) = Bool.eqb (t_rreq (s_term s)) (o_racc (s_dev s));
  i_rx2 : if Bool.eqb (t_rreq (s_term s)) (o_racc (s_dev s)) then delivered s = announced s
          else announced s = delivered s ++ [t_str (s_term s)] }.

Lemma inv0 : Inv sys0.
Proof. constructor; cbn; intros; repeat split; auto; easy. Qed.

Lemma inv_write s b : Inv s -> Inv (step s (EWrite b)).
Proof.
  intros [R O E L T P I C X1 X2]. constructor; try assumption.
  cbn [step s_pipe written accepted]. rewrite <- T, <- !app_assoc. reflexivity.
Qed.

Lemma eqb_false_neq a b : Bool.eqb a b = false -> a <> b.
Proof. apply Bool.eqb_false_iff. Qed.
Lemma eqb_true_eq a b : Bool.eqb a b = true -> a = b.
Proof. apply Bool.eqb_prop. Qed.

Lemma chunk_firstn (p : list Z) : p <> [] -> chunk_ok (firstn chunk p).
Proof.
  intros H. unfold chunk_ok. rewrite firstn_length. destruct p; [congruence|]. cbn [length]. unfold chunk. lia.
Qed.

(* the clauses of Inv for a state given as a record, with the fields in place of the projections; a clause that
   mentions no changed field is then the old one, and `assumption` finds it *)
Ltac inv_clauses := constructor; unfold pend; cbn [s_dev s_term s_pipe written accepted announced delivered].

(* update on a connected device, transmit direction: a chunk that is pending, or an empty pipe, leaves everything as it
   is; otherwise the device presents the next chunk of the pipe *)
Lemma update_tx s : Inv s -> connected (s_dev s) = true ->
  let '(d', pipe', _) := update (s_dev s) (inputs_of (s_term s)) (s_pipe s) in
  connected d' = true /\ lta d' = t_tacc (s_term s) /\ ltr d' = o_treq d' /\
  (o_treq d' = o_treq (s_dev s) /\ o_str d' = o_str (s_dev s) /\ pipe' = s_pipe s /\
   cur d' = (if pend s then cur (s_dev s) else None) \/
   pend s = false /\ s_pipe s <> [] /\ o_treq d' = negb (o_treq (s_dev s)) /\
   o_str d' = firstn chunk (s_pipe s) /\ pipe' = skipn chunk (s_pipe s) /\ cur d' = Some (o_str d')).
Proof.
  intros H Cn. unfold update. rewrite Cn. cbn [negb inputs_of i_tacc]. rewrite <- (proj1 (i_out s H)).
  destruct (pend s) eqn:Hp.
  - (* the chunk is held and not yet acknowledged *)
    destruct (i_pend s H Hp) as (-> & -> & _). rewrite Bool.eqb_reflx. cbn. auto 10.
  - (* idle, or the acknowledgement has just come: either way no chunk is held *)
    replace (if negb _ then None else cur (s_dev s)) with (@None (list Z)).
    + destruct (s_pipe s) as [|b p]; cbn; [auto 10|]. repeat split; auto. right. repeat split; auto. discriminate.
    + destruct (Bool.eqb_spec (lta (s_dev s)) (t_tacc (s_term s))) as [El|El]; [|reflexivity].
      symmetry. apply (i_idle s H Hp), El.
Qed.

(* receive direction: the device catches up with the terminal *)
Lemma update_rx s : Inv s -> connected (s_dev s) = true ->
  let '(d', _, w) := update (s_dev s) (inputs_of (s_term s)) (s_pipe s) in
  lrr d' = t_rreq (s_term s) /\ lra d' = t_rreq (s_term s) /\ o_racc d' = t_rreq (s_term s) /\
  match w with WChunk c => delivered s ++ [c] | _ => delivered s end = announced s.
Proof.
  intros [_ [_ O] _ _ _ _ _ _ X1 X2] Cn. unfold update. rewrite Cn. cbn [negb inputs_of i_rreq i_str].
  (* whatever the transmit half yields *)
  destruct (match _ with Some c => _ | None => _ end) as [[cur2 ltr2] pipe2]. cbn [lrr lra o_racc].
  rewrite O in *.
  destruct (Bool.eqb_spec (t_rreq (s_term s)) (lra (s_dev s))) as [Ea|Ea]; rewrite X1; cbn [negb].
  - (* nothing announced since the last update *) auto.
  - (* the announced chunk is delivered and acknowledged *)
    repeat split; auto; destruct (t_rreq _), (lra _); easy.
Qed.

Lemma inv_update s : Inv s ->
  let '(d', pipe', w) := update (s_dev s) (inputs_of (s_term s)) (s_pipe s) in
  Inv {| s_dev := d'; s_term := s_term s; s_pipe := pipe'; written := written s; accepted := accepted s;
         announced := announced s; delivered := match w with WChunk c => delivered s ++ [c] | _ => delivered s end |} /\
  (connected d' = false -> o_ireq d' = true).
Proof.
  intros H. destruct (connected (s_dev s)) eqn:Cn.
  - pose proof (update_tx s H Cn) as TX. pose proof (update_rx s H Cn) as RX.
    destruct (update _ _ _) as [[d' pipe'] w].
    destruct TX as (Tc & Ta & To & TX), RX as (Rr & Ra & Ro & RD).
    destruct H as [R [O1 O2] E L T P I C X1 X2].
    (* the transmit clauses in one, p' being the new value of pend: i_tx takes for p' that value as it stands,
       i_pend and i_idle the true / false that their hypothesis gives it *)
    assert (M : forall p', negb (Bool.eqb (o_treq d') (t_tacc (s_term s))) = p' ->
                (if p' then o_str d' else []) ++ pipe' = (if pend s then o_str (s_dev s) else []) ++ s_pipe s /\
                if p' then cur d' = Some (o_str d') /\ chunk_ok (o_str d') else cur d' = None).
    { intros p' <-. destruct TX as [(-> & -> & -> & ->)|(Hp & Hn & -> & -> & -> & ->)].
      - fold (pend s). destruct (pend s); [destruct (P eq_refl) as (Pc & _ & Pk)|]; auto.
      - rewrite Hp. apply Bool.negb_false_iff, eqb_true_eq in Hp. rewrite Hp, Bool.eqb_negb1. cbn [negb].
        rewrite firstn_skipn. auto using chunk_firstn. }
    split; [|congruence]. inv_clauses; try assumption.
    + (* i_rest *) congruence.
    + (* i_out *) split; congruence.
    + (* i_tx *) rewrite (proj1 (M _ eq_refl)). exact T.
    + (* i_pend *) intros Hp'. destruct (M _ Hp') as (_ & Mc & Mk). auto.
    + (* i_idle *) intros Hp'. destruct (M _ Hp') as (_ & Mc). tauto.
    + (* i_rx1 *) rewrite Rr, Ro. reflexivity.
    + (* i_rx2 *) rewrite Ro, Bool.eqb_reflx. exact RD.
  - (* the device copies lta and lrr from terminal bits that are still false, like its own *)
    destruct H as [R O E L T P I C X1 X2].
    destruct (R Cn) as (Rl & Rr & _ & _ & _ & _ & _ & Rp). destruct (E ltac:(lia)) as (Et & Er & _).
    unfold update. rewrite Cn. cbn [negb]. destruct (i_iacc _); (split; [|cbn; congruence]).
    + cbn [inputs_of i_tacc i_rreq].
      replace (t_tacc (s_term s)) with (lta (s_dev s)) by congruence.
      replace (t_rreq (s_term s)) with (lrr (s_dev s)) by congruence.
      constructor; try assumption. discriminate.
    + constructor; try assumption. intros _. exact (R Cn).
Qed.

(* the operational terminal takes a pending chunk if the oracle lets it, and announces one if the device has
   acknowledged the last *)
Lemma react_op t d o : (2 <= t_phase t)%nat ->
  let '(t', acc, ann) := react t d o in
  t_phase t' = 2%nat /\ t_iacc t' = false /\
  (t_tacc t' = t_tacc t /\ acc = None \/
   negb (Bool.eqb (o_treq d) (t_tacc t)) = true /\ t_tacc t' = o_treq d /\ acc = Some (o_str d)) /\
  match ann with
  | Some c => Bool.eqb (t_rreq t) (o_racc d) = true /\ t_rreq t' = negb (t_rreq t) /\ t_str t' = c
  | None => t_rreq t' = t_rreq t /\ t_str t' = t_str t
  end.
Proof.
  intros Ph. unfold react. destruct (t_phase t) as [|[|ph]]; [lia..|].
  destruct (Bool.eqb (t_rreq t) (o_racc d)); [destruct (or_announce o)|];
    (destruct (negb _); [destruct (or_accept o)|]); cbn; auto 8.
Qed.

Lemma inv_react s o : Inv s -> (connected (s_dev s) = false -> o_ireq (s_dev s) = true) ->
  let '(t', acc, ann) := react (s_term s) (s_dev s) o in
  Inv {| s_dev := s_dev s; s_term := t'; s_pipe := s_pipe s; written := written s;
         accepted := opt_snoc (accepted s) acc; announced := opt_snoc (announced s) ann; delivered := delivered s |}.
Proof.
  intros H Hi. destruct (Nat.lt_ge_cases (t_phase (s_term s)) 2) as [Ph|Ph].
  - (* initialisation: only t_phase and t_iacc change, if anything (if nothing, the record is s: no eta for records) *)
    unfold react. destruct (t_phase (s_term s)) as [|[|ph]] eqn:Ep; [| |lia].
    + (* phase 0 to 1, the init request is accepted *)
      destruct (_ && _) eqn:Ho; [|destruct s; exact H].
      destruct H as [R O E L T P I C X1 X2]. inv_clauses; try assumption; cbn.
      * (* i_rest *) intros Hc%R. intuition.
      * (* i_early *) intros _. destruct (E ltac:(lia)) as (? & ? & ? & ? & _). auto 6.
      * (* i_late *) lia.
    + (* phase 1 to 2: the device has withdrawn its init request, so it is connected *)
      destruct (_ && _) eqn:Ho; [|destruct s; exact H].
      destruct H as [R O E L T P I C X1 X2]. inv_clauses; try assumption; cbn.
      * (* i_rest *) intros Hc%Hi. rewrite Hc, Bool.andb_false_r in Ho. discriminate.
      * (* i_early *) lia.
      * (* i_late *) reflexivity.
  - (* operational: the transmit clauses go by whether the chunk is taken, the receive clauses by whether one is
       announced *)
    pose proof (react_op (s_term s) (s_dev s) o Ph) as RO. destruct (react _ _ _) as [[t' acc] ann].
    destruct RO as (Hp & Ha & TK & AN). fold (pend s) in TK.
    destruct H as [R O E L T P I C X1 X2]. inv_clauses; try assumption.
    + (* i_rest *) intros Hc%R. lia.
    + (* i_early *) lia.
    + (* i_late *) auto.
    + (* i_tx *)
      destruct TK as [(-> & ->)|(Hq & -> & ->)]; [exact T|].
      rewrite Hq in T. rewrite Bool.eqb_reflx. cbn [opt_snoc negb app].
      rewrite concat_app, <- app_assoc. cbn [concat]. rewrite app_nil_r. exact T.
    + (* i_pend *)
      destruct TK as [(-> & ->)|(Hq & -> & ->)]; [exact P|]. rewrite Bool.eqb_reflx. discriminate.
    + (* i_idle *)
      destruct TK as [(-> & ->)|(Hq & -> & ->)]; [exact I|]. intros _.
      destruct (P Hq) as (-> & -> & _). apply Bool.negb_true_iff, eqb_false_neq in Hq. split; congruence.
    + (* i_chunks *)
      destruct TK as [(_ & ->)|(Hq & _ & ->)]; [exact C|].
      apply Forall_app. split; [exact C|]. constructor; [apply (P Hq)|constructor].
    + (* i_rx1 *)
      destruct ann as [c|]; [destruct AN as (Hf & -> & _)|destruct AN as (-> & _); exact X1].
      rewrite Hf in X1. apply eqb_true_eq in X1, Hf. rewrite X1, Hf. destruct (o_racc _); reflexivity.
    + (* i_rx2 *)
      destruct ann as [c|]; [destruct AN as (Hf & -> & ->)|destruct AN as (-> & ->); exact X2].
      rewrite Hf in X2. apply eqb_true_eq in Hf. rewrite Hf, Bool.eqb_negb1, X2. reflexivity.
Qed.

Lemma inv_cycle s o : Inv s -> Inv (step s (ECycle o)).
Proof.
  intros H. cbn [step]. pose proof (inv_update s H) as U. destruct (update _ _ _) as [[d' pipe'] w].
  destruct U as [U Hi]. pose proof (inv_react _ o U Hi) as V. cbn [s_dev s_term] in V.
  destruct (react _ _ _) as [[t' acc] ann]. exact V.
Qed.

Theorem reachable_inv evs : Inv (fold_left step evs sys0).
Proof. apply fold_left_inv; [|exact inv0]. intros s [b|o]; [apply inv_write|apply inv_cycle]. Qed.

(* what a cycle does to the request bit, the presented chunk and the pipe: nothing, or the next chunk is presented *)
Lemma cycle_tx s o : Inv s -> let s' := step s (ECycle o) in
  o_treq (s_dev s') = o_treq (s_dev s) /\ s_pipe s' = s_pipe s /\ o_str (s_dev s') = o_str (s_dev s) \/
  pend s = false /\ s_pipe s <> [] /\ o_str (s_dev s') = firstn chunk (s_pipe s) /\ s_pipe s' = skipn chunk (s_pipe s).
Proof.
  intros H. cbn [step]. destruct (connected (s_dev s)) eqn:Cn.
  - pose proof (update_tx s H Cn) as TX. destruct (update _ _ _) as [[d' pipe'] w].
    destruct (react _ _ _) as [[t' acc] ann]. cbn [s_dev s_pipe].
    destruct TX as (_ & _ & _ & [(Tq & To & Tp & _)|(Hp & Hn & _ & To & Tp & _)]); [left|right]; auto.
  - left. unfold update. rewrite Cn. cbn [negb].
    destruct (i_iacc _); destruct (react _ _ _) as [[t' acc] ann]; cbn; auto.
Qed.
