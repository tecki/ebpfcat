From Verif Require Import Dev.Valve.

(* with the default safe state (coil off), the position check of update is `confirms` *)
Lemma confirms_default c op cl :
  negb (Bool.eqb op cl) && (if Bool.eqb c false then cl || negb op else op || negb cl) = confirms c op cl.
Proof. destruct c, op, cl; reflexivity. Qed.

Lemma position_check_default v op cl now moving :
  let v' := update false moving v op cl now in
  confirms (coil v) op cl = true -> v' = {| coil := target v; target := target v; error := error v; lastGood := now |}.
Proof. unfold update. rewrite confirms_default. intros ->. reflexivity. Qed.

Lemma follow safe moving v op cl now :
  let inPosition := negb (Bool.eqb op cl) in
  let isCorrect := if Bool.eqb (coil v) safe then cl || negb op else op || negb cl in
  (inPosition && isCorrect = true \/ now - lastGood v < moving) ->
  let v' := update safe moving v op cl now in
  coil v' = target v /\ target v' = target v /\ error v' = error v.
Proof.
  intros ip ic H v'. subst v'. unfold update. fold ip ic.
  destruct (ip && ic); [simpl; auto|].
  destruct H as [H|H]; [discriminate|].
  destruct (Z.ltb_spec (now - lastGood v) moving); [simpl; auto|lia].
Qed.

Lemma timeout safe moving v op cl now :
  let inPosition := negb (Bool.eqb op cl) in
  let isCorrect := if Bool.eqb (coil v) safe then cl || negb op else op || negb cl in
  inPosition && isCorrect = false -> moving <= now - lastGood v ->
  let v' := update safe moving v op cl now in
  error v' = true /\ coil v' = safe /\ target v' = safe.
Proof.
  intros ip ic H T v'. subst v'. unfold update. fold ip ic. rewrite H.
  destruct (Z.ltb_spec (now - lastGood v) moving); [lia|simpl; auto].
Qed.

Definition run (safe : bool) (moving : Z) (v : valve) (evs : list event) : valve :=
  fold_left (step safe moving) evs v.

(* the error flag is raised only by a timeout and cleared only by reset *)
Lemma error_step safe moving v e :
  let v' := step safe moving v e in
  error v' = match e with
             | EReset _ => false
             | ESetTarget _ => error v
             | EUpdate op cl now =>
                 let inPosition := negb (Bool.eqb op cl) in
                 let isCorrect := if Bool.eqb (coil v) safe then cl || negb op else op || negb cl in
                 if inPosition && isCorrect then error v
                 else if now - lastGood v <? moving then error v else true
             end.
Proof.
  destruct e as [now|t|op cl now]; cbn [step reset error]; try reflexivity.
  unfold update. destruct (negb (Bool.eqb op cl) && _); [reflexivity|].
  destruct (now - lastGood v <? moving); reflexivity.
Qed.
