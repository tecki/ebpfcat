From Verif Require Import Lib.ListX Dev.SerialLayout.

Lemma wr_length img start bs : (start + length bs <= length img)%nat -> length (wr img start bs) = length img.
Proof. apply splice_length. Qed.

Lemma wr_outside img start bs j dflt :
  (start + length bs <= length img)%nat ->
  (j < start \/ start + length bs <= j)%nat ->
  nth j (wr img start bs) dflt = nth j img dflt.
Proof. apply nth_splice_outside. Qed.

Lemma wr_inside img start bs j dflt :
  (start + length bs <= length img)%nat -> (start <= j < start + length bs)%nat ->
  nth j (wr img start bs) dflt = nth (j - start) bs dflt.
Proof. apply nth_splice_inside. Qed.

Section Layout.
  Variable descs : list desc.
  Variable chans : list (Z * Z).
  Hypothesis Hpairs : pairs_ok descs chans = true.
  Hypothesis Hshape : shape_ok descs chans = true.

  Lemma ranges_disjoint c1 c2 d1 d2 :
    In c1 chans -> In c2 chans -> c1 <> c2 -> In d1 descs -> In d2 descs -> d_sm d1 = d_sm d2 ->
    hi c1 d1 <= lo c2 d2 \/ hi c2 d2 <= lo c1 d1.
  Proof.
    intros H1 H2 Hne Hd1 Hd2 Hsm.
    unfold pairs_ok in Hpairs. rewrite forallb_forall in Hpairs.
    specialize (Hpairs (c1, c2) (in_prod _ _ _ _ H1 H2)). cbn beta iota in Hpairs.
    destruct ((fst c1 =? fst c2) && (snd c1 =? snd c2)) eqn:E.
    - exfalso. apply Hne. destruct c1, c2; cbn [fst snd] in E. f_equal; lia.
    - rewrite forallb_forall in Hpairs.
      specialize (Hpairs (d1, d2) (in_prod _ _ _ _ Hd1 Hd2)). cbn beta iota in Hpairs.
      unfold disjointb in Hpairs. lia.
  Qed.

  Lemma lo_nonneg c d : In c chans -> In d descs -> 0 <= lo c d.
  Proof.
    intros Hc Hd. unfold shape_ok in Hshape. apply andb_true_iff in Hshape as [Hs1 Hs2].
    rewrite forallb_forall in Hs1, Hs2. specialize (Hs1 d Hd). specialize (Hs2 c Hc).
    unfold lo, chan_off. destruct (d_sm d =? 3); lia.
  Qed.

  (* THE non-interference statement: whatever bytes are written into variable d1 of channel c1 (as many as its width), no byte
     of any variable d2 of another channel c2 in the same image changes *)
  Theorem write_keeps_other_channel img c1 c2 d1 d2 bs j dflt :
    In c1 chans -> In c2 chans -> c1 <> c2 -> In d1 descs -> In d2 descs -> d_sm d1 = d_sm d2 ->
    Z.of_nat (length bs) = d_width d1 ->
    hi c1 d1 <= Z.of_nat (length img) ->
    lo c2 d2 <= Z.of_nat j < hi c2 d2 ->
    nth j (wr img (Z.to_nat (lo c1 d1)) bs) dflt = nth j img dflt.
  Proof.
    intros H1 H2 Hne Hd1 Hd2 Hsm Hlen Hin Hj.
    pose proof (ranges_disjoint c1 c2 d1 d2 H1 H2 Hne Hd1 Hd2 Hsm) as Hd.
    pose proof (lo_nonneg c1 d1 H1 Hd1) as Hn. unfold hi in *. apply wr_outside; lia.
  Qed.
End Layout.
